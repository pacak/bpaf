(* TotalLaws.v -- C04: for EVERY parser `okp` accepts (Model/Wf.v: named items have a name or a variable,
   option levels pass the invariant check, adjacent groups have scope-keeping members and a first item),
   evaluation from every well-formed state ends in a value or an error: no panic outcome, no fuel exhaustion.
   Well-formedness (G: ledger bounded, scope inside the ledger, `remaining` exact) is kept by every
   evaluation because states only move by the legal steps of Reach.v; so each combinator body only has to
   keep `safe`: move the ledger by legal steps and not halt from a well-formed state. *)
From BpafModel Require Import Wf.
From BpafLemmas Require Import Tac Find Reach LoopLaws Ledger NoLoss Exact.
Import ListNotations.

Definition scope_ok (s : state) : Prop := sc_start s <= sc_end s /\ sc_end s <= length (ist s).
Definition G (s : state) : Prop := bounded s /\ scope_ok s /\ exact s.

Lemma G_lenwf s : G s -> lenwf s.
Proof. intros [H _]. exact (bounded_lenwf s H). Qed.

Lemma step_scope K s s' : step K s s' -> scope_ok s -> scope_ok s'.
Proof.
  intros St H. destruct St as [k ix s st HK Hin Hst Hp Ha|s c|s p|s a b s' Hs|s ist' Hl Hm]; unfold scope_ok.
  - rewrite (sremove_eff k ix s st Hin Hst Hp). cbn. rewrite update_nth_length. exact H.
  - exact H.
  - exact H.
  - apply set_scope_fields in Hs. destruct Hs as (_ & -> & _ & _ & _ & -> & -> & H1 & H2). auto.
  - cbn. rewrite Hl. exact H.
Qed.

Lemma reach_G K s s' : reach K s s' -> G s -> G s' /\ items s' = items s.
Proof.
  intros R (Hb & Hs & He). destruct (reach_bounded K s s' R Hb) as [B I]. split; [|exact I]. split; [exact B|].
  split; [exact (reach_inv K scope_ok (step_scope K) s s' R Hs)|exact (reach_inv K exact (step_exact K) s s' R He)].
Qed.

Lemma set_scope_G s a b s' : lenwf s -> set_scope s a b = Some s' -> G s'.
Proof.
  intros Hl H. unfold lenwf in Hl. pose proof (set_scope_exact _ _ _ _ H) as He.
  apply set_scope_fields in H. destruct H as (Hi & Ht & _ & _ & _ & Ha & Hb & Hab & Hbl).
  split; [split|split; [split|exact He]].
  - congruence.
  - unfold exact in He. rewrite He, Hi, Ht. rewrite <- Hl. apply count_present_le.
  - lia.
  - rewrite Hb, Ht. exact Hbl.
Qed.

Definition nf (r : eres) : Prop := match r with RPanic _ | RFuel => False | _ => True end.
Definition nfs (r : sres) : Prop := match r with SPanic _ | SFuel => False | _ => True end.

Lemma nf_halts r : nf r <-> halts r = false.
Proof. destruct r; cbn; intuition discriminate. Qed.

Definition keepsG (ev : evaluator) : Prop := forall s, G s -> G (snd (ev s)) /\ items (snd (ev s)) = items s.
Definition total (ev : evaluator) : Prop := forall s, G s -> nf (fst (ev s)).
Definition keepsGr (run : state -> sres * state) : Prop := forall s, G s -> G (snd (run s)) /\ items (snd (run s)) = items s.
Definition totalr (run : state -> sres * state) : Prop := forall s, G s -> nfs (fst (run s)).

Lemma ev_reach_keepsG K ev : ev_reach K ev -> keepsG ev.
Proof. intros H s Hg. apply (reach_G K s _ (H s) Hg). Qed.
Lemma run_reach_keepsGr K run : run_reach K run -> keepsGr run.
Proof. intros H s Hg. apply (reach_G K s _ (H s) Hg). Qed.

Definition safe (ev : evaluator) : Prop := ev_reach (fun _ => True) ev /\ total ev.
Definition safe_run (run : state -> sres * state) : Prop := run_reach (fun _ => True) run /\ totalr run.

Lemma safe_next ev s : safe ev -> G s -> G (snd (ev s)).
Proof. intros [R _] Hg. apply (ev_reach_keepsG _ ev R s Hg). Qed.

Section WithEnv.
Variable env : bytes -> option bytes.

Lemma convert_nf ty w s : nf (fst (convert_res ty w s)).
Proof. unfold convert_res. destruct (convert ty w); exact I. Qed.

Lemma flag_safe n p a : keyedb n = true -> safe (eval_flag env n p a).
Proof.
  intros Hk. split; [apply eval_flag_reach; exact I|]. intros s _. unfold eval_flag. destruct (take_flag n s); [exact I|].
  destruct (env_first env (n_env n)); [exact I|]. destruct a; [exact I|].
  unfold flag_item, keyedb in *. destruct (shortlong_of n); cbn; [exact I|].
  destruct (n_env n); [discriminate|exact I].
Qed.

Lemma arg_safe n mv ty adj : keyedb n = true -> safe (eval_arg env n mv ty adj).
Proof.
  intros Hk. split; [apply eval_arg_reach; exact I|]. intros s _. unfold eval_arg. destruct (take_arg n adj s); try apply convert_nf; try exact I.
  destruct (env_first env (n_env n)); [apply convert_nf|].
  unfold arg_item, keyedb in *. destruct (shortlong_of n); cbn; [exact I|].
  destruct (n_env n); [discriminate|exact I].
Qed.

Lemma pos_safe mv ty pos help : safe (eval_pos mv ty pos help).
Proof.
  split; [apply eval_pos_reach; exact I|]. intros s _. unfold eval_pos. destruct (take_positional_word s) as [[[[ix st] w] s']|]; [|exact I].
  destruct pos; destruct st; try exact I; apply convert_nf.
Qed.

Lemma any_safe mv help check anywhere : safe (eval_any mv help check anywhere).
Proof.
  split; [apply eval_any_reach; exact I|]. intros s _. unfold eval_any.
  match goal with |- context [match ?f with Some ix => _ | None => _ end] => destruct f as [ix|] end; [|exact I].
  destruct (nth_error (items s) ix) as [a|]; [|exact I]. destruct (check (arg_os a)); exact I.
Qed.

Lemma pure_safe v : safe (fun s => (ROk v, set_current s None)).
Proof. split; [intros s; apply reach_current|intros s _; exact I]. Qed.
Lemma pure_with_safe (r : val + bytes) :
  safe (fun s => match r with inl v => (ROk v, s) | inr e => (RErr (MsgPureFailed e), s) end).
Proof. split; intros s; destruct r; try apply reach_refl; intros _; exact I. Qed.
Lemma fail_safe msg : safe (fun s => (RErr (MsgParseFail msg), set_current s None)).
Proof. split; [intros s; apply reach_current|intros s _; exact I]. Qed.

Lemma G_remaining s : G s -> remaining s <= length (items s).
Proof. intros [[_ H] _]. exact H. Qed.

(* LoopLaws: a repetition halts only with the outcome of a run of its inner parser from a state that
   satisfies the invariant; with G as the invariant there is no such run *)
Lemma total_not_halts ev its r :
  total ev -> (halts r = true -> exists s', good G its s' /\ fst (ev s') = r) -> nf r.
Proof.
  intros Ht H. destruct (halts r) eqn:E; [|apply nf_halts; exact E].
  destruct (H eq_refl) as (s' & [Hg _] & <-). apply Ht, Hg.
Qed.

Lemma optional_safe ev c : safe ev -> safe (optional_body ev c).
Proof.
  intros [R T]. split; [apply (optional_rel (reach _)); auto using reach_rel|]. intros s Hg. specialize (T s Hg).
  unfold optional_body. pose proof (parse_option_cases ev None s c) as C.
  destruct (parse_option ev None s c) as [[o l] s']. destruct o; try exact I; destruct C as [_ C]; rewrite C in T; exact T.
Qed.

Lemma many_safe ev c : safe ev -> safe (many_body ev c).
Proof.
  intros [R T]. split; [apply (many_rel (reach _)); auto using reach_rel|]. intros s Hg.
  apply (total_not_halts ev (items s) _ T).
  apply (many_body_halts ev G G_remaining (ev_reach_keepsG _ ev R) (items s) c s (conj Hg eq_refl)).
Qed.

Lemma some_safe ev m c : safe ev -> safe (some_body ev m c).
Proof.
  intros [R T]. split; [apply (some_rel (reach _)); auto using reach_rel|]. intros s Hg.
  apply (total_not_halts ev (items s) _ T).
  apply (some_body_halts ev G G_remaining (ev_reach_keepsG _ ev R) (items s) m c s (conj Hg eq_refl)).
Qed.

Lemma count_safe ev : safe ev -> safe (count_body ev).
Proof.
  intros [R T]. split; [apply (count_rel (reach _)); auto using reach_rel|]. intros s Hg.
  apply (total_not_halts ev (items s) _ T).
  apply (count_body_halts ev G G_remaining (ev_reach_keepsG _ ev R) (items s) s (conj Hg eq_refl)).
Qed.

Lemma last_safe ev : safe ev -> safe (last_body ev).
Proof.
  intros [R T]. split; [apply (last_rel (reach _)); auto using reach_rel|]. intros s Hg.
  apply (total_not_halts ev (items s) _ T).
  apply (last_body_halts ev G G_remaining (ev_reach_keepsG _ ev R) (items s) s (conj Hg eq_refl)).
Qed.

Lemma fallback_with_safe ev fb : safe ev -> safe (fallback_with_body ev fb).
Proof.
  intros [R T]. split; [apply (fallback_with_rel (reach _)); auto using reach_rel|]. intros s Hg. specialize (T s Hg).
  unfold fallback_with_body. destruct (ev s) as [[v|e|w|] s']; try exact T. destruct (can_catch e); [destruct fb|]; exact I.
Qed.

Lemma guard_safe ev c m : safe ev -> safe (guard_body ev c m).
Proof.
  intros [R T]. split; [apply (guard_rel (reach _)); auto using reach_rel|]. intros s Hg. specialize (T s Hg).
  unfold guard_body. destruct (ev s) as [[v|e|w|] s']; try exact T. destruct (c v); exact I.
Qed.

Lemma parse_safe ev f : safe ev -> safe (parse_body ev f).
Proof.
  intros [R T]. split; [apply (parse_rel (reach _)); auto using reach_rel|]. intros s Hg. specialize (T s Hg).
  unfold parse_body. destruct (ev s) as [[v|e|w|] s']; try exact T. destruct (f v); exact I.
Qed.

Lemma map_safe ev f : safe ev -> safe (map_body ev f).
Proof.
  intros [R T]. split; [apply (map_rel (reach _)); auto using reach_rel|]. intros s Hg. specialize (T s Hg).
  unfold map_body. destruct (ev s) as [[v|e|w|] s']; exact T.
Qed.

Lemma hide_safe ev : safe ev -> safe (hide_body ev).
Proof.
  intros [R T]. split; [apply (hide_rel (reach _)); auto using reach_rel|]. intros s Hg. specialize (T s Hg).
  unfold hide_body. destruct (ev s) as [[v|e|w|] s']; try exact T. destruct e; exact I.
Qed.

Lemma or_safe eva evb : safe eva -> safe evb -> safe (or_body eva evb).
Proof.
  intros [Ra Ta] [Rb Tb]. split; [apply (or_rel (reach _)); auto using reach_rel|]. intros s Hg.
  pose proof (Ta s Hg) as Na. pose proof (Tb s Hg) as Nb. rewrite or_body_eq.
  rewrite (proj1 (nf_halts _) Na), (proj1 (nf_halts _) Nb).
  destruct (this_or_that _ _ s _ _) as [[[|]|e] s']; [exact Na|exact Nb|exact I].
Qed.

Lemma con_go_total ff evs : Forall safe evs -> forall s first acc err,
  G s -> nf (fst (con_go ff evs s first acc err)).
Proof.
  induction 1 as [|ev evs Hev _ IH]; intros s first acc err Hg; cbn [con_go]; [destruct err; exact I|].
  pose proof (proj2 Hev s Hg) as N. pose proof (safe_next ev s Hev Hg) as Gn.
  destruct (ev s) as [[v|e|w|] s']; try exact N; [apply IH, Gn|].
  destruct (ff && first); [exact I|apply IH, Gn].
Qed.

Lemma con_safe ff evs : Forall safe evs -> safe (con_body ff evs).
Proof.
  intros H. split.
  - apply (con_rel _ (reach_rel _)). eapply Forall_impl; [|exact H]. intros ev [R _]. exact R.
  - intros s Hg. unfold con_body, con_reset. pose proof (con_go_total ff evs H s true [] None Hg) as N.
    destruct (con_go ff evs s true [] None) as [r s']. exact N.
Qed.

(* the name found is an item of the scope, so the scope from it to the end lies inside the ledger *)
Lemma cmd_entered_G name names s s1 :
  G s -> take_cmd_any names s = (true, s1) ->
  exists s3, cmd_entered name s1 = Some s3 /\ G s3 /\ sc_start s3 < sc_end s3.
Proof.
  intros Hg E. pose proof (take_cmd_any_reach (fun _ => True) names s (fun _ _ => I)) as R. rewrite E in R.
  destruct (reach_G _ _ _ R Hg) as [G1 _]. pose proof G1 as (_ & (_ & S1) & _).
  destruct (take_cmd_any_cases names s) as [(w & ix & a & _ & Hf & _ & _ & E')|[E'|E']]; rewrite E' in E; inv E.
  apply find_item_some in Hf. destruct Hf as [Hin _]. apply in_scope_iff in Hin.
  set (s1 := set_current (sremove (KCmd w) ix s) (Some ix)) in *.
  assert (Se : sc_end s1 = sc_end s) by apply (sremove_same_scope (KCmd w) ix s).
  destruct (set_scope_some s1 ix (sc_end s1)) as [s2 E2]; [lia|exact S1|].
  unfold cmd_entered. change (current s1) with (Some ix). cbv iota. rewrite E2. eexists. split; [reflexivity|].
  split; [exact (set_scope_G _ _ _ _ (G_lenwf _ G1) E2)|].
  apply set_scope_fields in E2. destruct E2 as (_ & _ & _ & _ & _ & A2 & B2 & _). cbn. lia.
Qed.

Lemma cmd_total_with name aliases shorts help (adjacent : bool) m i run :
  (forall s3, G s3 -> sc_start s3 < sc_end s3 ->
              nf (fst (if adjacent then cmd_adjacent run s3 else lift_run (run s3)))) ->
  total (cmd_body name aliases shorts help adjacent m i run).
Proof.
  intros H s Hg. rewrite cmd_body_eq. destruct (take_cmd_any _ s) as [[|] s1] eqn:E; [|exact I].
  destruct (cmd_entered_G name _ s s1 Hg E) as (s3 & -> & G3 & Hlt). apply H; assumption.
Qed.

Lemma cmd_total name aliases shorts help m_sub i_sub run :
  totalr run -> total (cmd_body name aliases shorts help false m_sub i_sub run).
Proof.
  intros Ht. apply cmd_total_with. intros s3 G3 _. specialize (Ht s3 G3). unfold lift_run.
  destruct (run s3) as [[] s4]; exact Ht.
Qed.

Lemma run_finish_total inf m s1 err : invariant_ok m = true -> nfs (fst (run_finish env inf m s1 err)).
Proof.
  intros Hi. unfold run_finish. destruct (info_eval env inf s1) as [[[d|ver]|] s2]; [rewrite Hi| |]; exact I.
Qed.

Lemma run_sub_body_total inf m s r s1 :
  invariant_ok m = true -> nf r -> nfs (fst (run_sub_body env inf m s (r, s1))).
Proof.
  intros Hi N. rewrite run_sub_body_eq. destruct r as [v|e|w|]; try contradiction.
  - destruct (first_item_ix s1); [apply run_finish_total, Hi|exact I].
  - destruct (_ && _ && _); [rewrite Hi; exact I|]. destruct e; try apply run_finish_total, Hi. exact I.
Qed.

Lemma run_sub_safe q inf : oko (Options q inf) = true -> safe (eval env q) -> safe_run (run_sub env (Options q inf)).
Proof.
  intros H [_ T]. apply andb_prop in H. destruct H as [_ Hi].
  split; [intros s; apply run_sub_reach_any|]. intros s Hg. rewrite run_sub_eq.
  specialize (T s Hg). destruct (eval env q s) as [r s1]. apply run_sub_body_total; assumption.
Qed.

Lemma eval_keepsG p : keepsG (eval env p).
Proof. apply (ev_reach_keepsG (fun _ => True)). intros s. apply eval_reach_any. Qed.
End WithEnv.

(* a live item in the scope is counted *)
Lemma remaining_pos s p : G s -> in_scope s p = true -> live s p -> 1 <= remaining s.
Proof.
  intros (_ & _ & Hex) Hin Hl. unfold exact in Hex. rewrite Hex, count_present_cnt.
  unfold in_scope in Hin. apply andb_prop in Hin. destruct Hin as [H1 H2].
  apply Nat.leb_le in H1. apply Nat.ltb_lt in H2.
  apply (cnt_pos _ _ _ p); [lia|]. apply live_pres, Hl.
Qed.
