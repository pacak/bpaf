(* BalLaws.v -- C16, C12: the documents bpaf builds have balanced blocks.  Every writer of Model/Help.v and
   Model/Docs.v extends a document by a block-neutral piece, provided the documents the user supplied are
   balanced and hold neither Block::Meta nor Block::TermRef (the two blocks a renderer answers with todo!()).
   Hence the help / HTML / manpage documents of every parser are balanced, the group loop of
   write_help_item_groups terminates, and the renderers return.  On the way: Meta::normalize keeps the
   documents of a metadata tree (normalize_ok), and extract_sections has fuel enough (sections_total).

   Nesting is said four ways:  HtmlLaws.bal st d (bool; what C16 / C12 state);  run st d, the stack left
   after d (bal st d = true <-> run st d = Some []);  crun ok st d, run that also fails on a block outside
   ok (= if allowed ok d then run st d else None);  HtmlLaws.wn, the same on the tags a renderer emits.
   "d' is d followed by something that pushes the blocks k" is `extk` over run and `pushes ok` over crun ok;
   extk = pushes (fun _ => true), and every proof about a writer is about `pushes ok`.

   *ok / *dok predicates say "every document the user put into this is `good`": ogood an optional document,
   named_ok / info_ok the texts of a named item / an option level, mok / iok a metadata tree / an item,
   hok a help item, pok = hok and not a group bracket, wfi = pok items with brackets in pairs, sec_ok a
   section of the manual, pdok / pldok / odok a parser / field list / option level.  `ok` alone is a set of
   blocks (block -> bool), as are userblock, no_meta, no_termref. *)
From Coq Require Import Lia.
From BpafModel Require Import Docs.
From BpafLemmas Require Import Closure HtmlLaws HelpItems HelpOrder.
Import ListNotations.

Fixpoint run (st : list block) (d : doc) : option (list block) :=
  match d with
  | [] => Some st
  | TText _ _ :: t => run st t
  | TStart b :: t => run (b :: st) t
  | TEnd b :: t =>
    match st with
    | b' :: below => if block_eqb b b' then run below t else None
    | [] => None
    end
  end.

Definition obind {A B} (o : option A) (f : A -> option B) : option B :=
  match o with Some x => f x | None => None end.

Lemma run_app a : forall st b, run st (a ++ b) = obind (run st a) (fun s => run s b).
Proof.
  induction a as [|t a IH]; intros st b; cbn [app run obind]; [reflexivity|].
  destruct t as [sty s|bl|bl]; [apply IH|apply IH|].
  destruct st as [|b' below]; [reflexivity|]. destruct (block_eqb bl b'); [apply IH|reflexivity].
Qed.

Lemma bal_run d : forall st, bal st d = true <-> run st d = Some [].
Proof.
  induction d as [|t d IH]; intros st; cbn [bal run].
  - destruct st; cbn; split; congruence.
  - destruct t as [sty s|b|b]; [apply IH|apply IH|].
    destruct st as [|b' below]; [split; discriminate|].
    destruct (block_eqb b b'); cbn [andb]; [apply IH|split; discriminate].
Qed.

Lemma block_eqb_refl b : block_eqb b b = true.
Proof. destruct b; reflexivity. Qed.

Definition neutral (e : doc) : Prop := forall st, run st e = Some st.

Lemma neutral_nil : neutral [].
Proof. intros st. reflexivity. Qed.
Lemma neutral_app a b : neutral a -> neutral b -> neutral (a ++ b).
Proof. intros Ha Hb st. rewrite run_app, Ha. cbn. apply Hb. Qed.
Lemma neutral_text sty s : neutral [TText sty s].
Proof. intros st. reflexivity. Qed.
Lemma neutral_cons_text sty s e : neutral e -> neutral (TText sty s :: e).
Proof. intros He st. cbn [run]. apply He. Qed.
Lemma neutral_bal e : neutral e -> bal [] e = true.
Proof. intros He. apply bal_run. apply He. Qed.

Definition extk (k : list block) (d d' : doc) : Prop :=
  forall st, run st d' = obind (run st d) (fun s => Some (k ++ s)).
Notation ext := (extk []).

Lemma extk_trans k1 k2 a b c : extk k1 a b -> extk k2 b c -> extk (k2 ++ k1) a c.
Proof.
  intros H1 H2 st. rewrite H2, H1. destruct (run st a); cbn; [rewrite app_assoc|]; reflexivity.
Qed.
Lemma ext_trans k a b c : extk k a b -> ext b c -> extk k a c.
Proof. intros H1 H2. exact (extk_trans k [] a b c H1 H2). Qed.

(* The Doc API (text / literal / emphasis / invalid / meta / doc / em_doc) is meant to build balanced
   documents whose blocks are InlineBlock, Mono and Section3.  `good` is what the theorems below ASSUME of
   every document the user supplies; that the API builds no others is not proved. *)
Definition allowed (ok : block -> bool) (d : doc) : bool :=
  forallb (fun t => match t with TText _ _ => true | TStart b | TEnd b => ok b end) d.
Definition userblock (b : block) : bool :=
  match b with BMeta | BTermRef => false | _ => true end.
Definition good (d : doc) : Prop := neutral d /\ allowed userblock d = true.
Definition ogood (o : option doc) : Prop := match o with Some d => good d | None => True end.
Lemma good_text sty s : good [TText sty s].
Proof. split; [apply neutral_text|reflexivity]. Qed.

Definition tok_ok (ok : block -> bool) (t : dtoken) : bool :=
  match t with TText _ _ => true | TStart b | TEnd b => ok b end.
Lemma allowed_cons ok t d : allowed ok (t :: d) = tok_ok ok t && allowed ok d.
Proof. reflexivity. Qed.

Section Checked.
Variable ok : block -> bool.

(* one invariant over this run says both that the blocks are balanced and that a renderer which panics on
   the blocks outside `ok` returns *)
Fixpoint crun (st : list block) (d : doc) : option (list block) :=
  match d with
  | [] => Some st
  | TText _ _ :: t => crun st t
  | TStart b :: t => if ok b then crun (b :: st) t else None
  | TEnd b :: t =>
    match st with
    | b' :: below => if ok b && block_eqb b b' then crun below t else None
    | [] => None
    end
  end.

Lemma crun_spec d : forall st, crun st d = if allowed ok d then run st d else None.
Proof.
  induction d as [|t d IH]; intros st; cbn [crun run allowed forallb]; [reflexivity|].
  fold (allowed ok d). destruct t as [sty s|b|b]; cbn [andb].
  - apply IH.
  - destruct (ok b); [apply IH|reflexivity].
  - destruct (ok b); cbn [andb]; [|destruct st; reflexivity].
    destruct st as [|b' below]; [destruct (allowed ok d); reflexivity|].
    destruct (block_eqb b b'); [apply IH|destruct (allowed ok d); reflexivity].
Qed.

Lemma crun_app a : forall st b, crun st (a ++ b) = obind (crun st a) (fun s => crun s b).
Proof.
  induction a as [|t a IH]; intros st b; cbn [app crun obind]; [reflexivity|].
  destruct t as [sty s|bl|bl]; [apply IH|destruct (ok bl); [apply IH|reflexivity]|].
  destruct st as [|b' below]; [reflexivity|]. destruct (ok bl && block_eqb bl b'); [apply IH|reflexivity].
Qed.

Definition cneutral (e : doc) : Prop := forall st, crun st e = Some st.
Definition pushes (k : list block) (d d' : doc) : Prop :=
  forall st, crun st d' = obind (crun st d) (fun s => Some (k ++ s)).

Lemma cneutral_spec e : cneutral e <-> neutral e /\ allowed ok e = true.
Proof.
  unfold cneutral, neutral. split.
  - intros H. pose proof (H []) as H0. rewrite crun_spec in H0.
    destruct (allowed ok e) eqn:E; [|discriminate]. split; [|reflexivity].
    intros st. specialize (H st). rewrite crun_spec, E in H. exact H.
  - intros [H E] st. rewrite crun_spec, E. apply H.
Qed.

Lemma pushes_nil_cneutral d : pushes [] [] d -> cneutral d.
Proof. intros H st. apply H. Qed.
End Checked.

Lemma crun_all st d : crun (fun _ => true) st d = run st d.
Proof.
  rewrite crun_spec. replace (allowed (fun _ => true) d) with true; [reflexivity|].
  symmetry. apply forallb_forall. intros [sty s|b|b] _; reflexivity.
Qed.

Lemma extk_pushes k d d' : extk k d d' <-> pushes (fun _ => true) k d d'.
Proof. unfold extk, pushes. split; intros H st; [rewrite !crun_all|rewrite <- !crun_all]; apply H. Qed.


Definition named_ok (n : named) : Prop := ogood (n_help n).
Definition info_ok (i : info) : Prop :=
  ogood (i_version i) /\ ogood (i_descr i) /\ ogood (i_header i) /\ ogood (i_footer i) /\
  ogood (i_usage i) /\ named_ok (i_help_arg i) /\ named_ok (i_version_arg i).

Fixpoint mok (m : meta) : Prop :=
  let all := fix all (xs : list meta) : Prop :=
    match xs with [] => True | x :: t => mok x /\ all t end in
  match m with
  | MAnd xs | MOr xs => all xs
  | MOptional x | MRequired x | MAdjacent x | MMany x | MStrict x => mok x
  | MSubsection x d | MSuffix x d | MCustomUsage x d => mok x /\ good d
  | MItem i => iok i
  | MSkip => True
  end
with iok (i : item) : Prop :=
  match i with
  | IAny mv _ h => good mv /\ ogood h
  | IPositional _ h | IFlag _ _ _ h | IArgument _ _ _ _ h => ogood h
  | ICommand _ _ h m inf => ogood h /\ mok m /\ info_ok inf
  end.

Lemma mok_list c xs : list_node c -> mok (c xs) <-> Forall mok xs.
Proof.
  intros [->| ->]; cbn; (induction xs as [|x t IH]; [split; [constructor|exact (fun _ => I)]|]);
    rewrite IH; (split; [intros [A B]; constructor; assumption|intros H; inversion H; auto]).
Qed.

Definition hok (it : helpitem) : Prop :=
  match it with
  | HDecorSuffix help _ | HGroupStart help _ => good help
  | HGroupEnd _ | HAnywhereStop _ => True
  | HAny mv _ help => good mv /\ ogood help
  | HPositional _ help | HFlag _ _ help | HArgument _ _ _ help => ogood help
  | HCommand _ _ help m i => ogood help /\ mok m /\ info_ok i
  | HAnywhereStart inner _ => mok inner
  end.
Definition plain (it : helpitem) : bool := negb (is_group_start it || is_group_end it).
Definition pok (it : helpitem) : Prop := plain it = true /\ hok it.

Inductive wfi : list helpitem -> Prop :=
| wfi_nil : wfi []
| wfi_plain it l : pok it -> wfi l -> wfi (it :: l)
| wfi_grp h ty ty' mid l :
    good h -> Forall pok mid -> wfi l -> wfi (HGroupStart h ty :: mid ++ HGroupEnd ty' :: l).

Lemma wfi_of_plain l : Forall pok l -> wfi l.
Proof. induction 1; constructor; assumption. Qed.
Lemma wfi_app a b : wfi a -> wfi b -> wfi (a ++ b).
Proof.
  induction 1 as [|it l Hit _ IH|h ty ty' mid l Hh Hm _ IH]; intros Hb; cbn [app].
  - exact Hb.
  - constructor; [exact Hit|apply IH, Hb].
  - rewrite <- app_assoc. cbn [app]. constructor; [exact Hh|exact Hm|apply IH, Hb].
Qed.

Lemma pok_not_start it : pok it -> is_group_start it = false.
Proof. intros [H _]. apply negb_true_iff, orb_false_iff in H. apply H. Qed.
Lemma pok_not_end it : pok it -> is_group_end it = false.
Proof. intros [H _]. apply negb_true_iff, orb_false_iff in H. apply H. Qed.

Lemma dedup_plain seen kf it : plain it = true ->
  forall keep seen' kf', dedup_check seen kf it = (keep, seen', kf') -> True.
Proof. auto. Qed.

Lemma iok_norm_item fu i : iok i -> iok (norm_item fu i).
Proof. destruct i; cbn; auto. Qed.

Lemma mok_norm_target a b m : mok m -> mok (fst (norm_target a b m)).
Proof. intros H. destruct a, b; cbn; exact H. Qed.

Lemma forall_filter {A} (P : A -> Prop) f l : Forall P l -> Forall P (filter f l).
Proof. induction 1 as [|x t Hx _ IH]; cbn; [constructor|]. destruct (f x); [constructor|]; assumption. Qed.

Lemma forall_retain (P : meta -> Prop) xs : forall saw, Forall P xs -> Forall P (retain_first_cmd xs saw).
Proof.
  induction xs as [|x t IH]; intros saw H; cbn; [constructor|]. inversion H; subst.
  destruct (is_command_meta x && saw); [apply IH; assumption|constructor; [assumption|apply IH; assumption]].
Qed.

Lemma mok_of_list c (ys : list meta) : list_node c ->
  Forall mok ys -> mok (match ys with [] => MSkip | [y] => y | _ => c ys end).
Proof.
  intros Hc H. destruct ys as [|y [|z t]]; [exact I|inversion H; assumption|].
  apply (mok_list c); assumption.
Qed.

(* Meta::normalize_vec, for And and for Or *)
Fixpoint norm_and (fu : bool) (xs : list meta) (cur : snorm) : list meta :=
  match xs with
  | [] => []
  | x :: t =>
    let '(x1, tn) := normalize fu x cur in
    let '(x2, cur') := norm_target cur tn x1 in
    x2 :: norm_and fu t cur'
  end.
Fixpoint norm_or (fu : bool) (norm : snorm) (xs : list meta) (final : snorm) : list meta * snorm :=
  match xs with
  | [] => ([], final)
  | x :: t =>
    let '(x1, tn) := normalize fu x norm in
    let '(x2, final') := norm_target final tn x1 in
    let '(rest, fin) := norm_or fu norm t final' in
    (x2 :: rest, fin)
  end.

Lemma normalize_and fu xs n :
  normalize fu (MAnd xs) n =
  let ys := filter (fun x => negb (is_skip x)) (norm_and fu xs n) in
  (match ys with [] => MSkip | [y] => y | _ => MAnd ys end, n).
Proof.
  cbn [normalize].
  match goal with |- context [filter _ (?f xs n)] => assert (E : forall cur, f xs cur = norm_and fu xs cur) end.
  { induction xs as [|x t IH]; intros cur; cbn [norm_and]; [reflexivity|].
    destruct (normalize fu x cur) as [x1 tn]. destruct (norm_target cur tn x1) as [x2 cur']. rewrite IH. reflexivity. }
  rewrite E. reflexivity.
Qed.

Lemma normalize_or fu xs n :
  normalize fu (MOr xs) n =
  let '(ys0, fin) := norm_or fu n xs n in
  let ys := filter (fun x => negb (is_skip x)) ys0 in
  (match ys with
   | [] => MSkip
   | [y] => y
   | _ => match retain_first_cmd ys false with [] => MSkip | [y] => y | zs => MRequired (MOr zs) end
   end, fin).
Proof.
  cbn [normalize].
  match goal with |- (let '(_, _) := ?f xs n in _) = _ => assert (E : forall fin, f xs fin = norm_or fu n xs fin) end.
  { induction xs as [|x t IH]; intros fin; cbn [norm_or]; [reflexivity|].
    destruct (normalize fu x n) as [x1 tn]. destruct (norm_target fin tn x1) as [x2 f']. rewrite IH. reflexivity. }
  rewrite E. reflexivity.
Qed.

Lemma norm_and_ok fu xs :
  Forall (fun x => mok x -> forall n, mok (fst (normalize fu x n))) xs -> Forall mok xs ->
  forall cur, Forall mok (norm_and fu xs cur).
Proof.
  induction 1 as [|x t Hx _ IH]; intros Hm cur; cbn [norm_and]; [constructor|]. inversion Hm; subst.
  specialize (Hx H1 cur). destruct (normalize fu x cur) as [x1 tn].
  pose proof (mok_norm_target cur tn x1 Hx) as H3. destruct (norm_target cur tn x1) as [x2 cur'].
  constructor; [exact H3|apply IH, H2].
Qed.

Lemma norm_or_ok fu n xs :
  Forall (fun x => mok x -> forall n, mok (fst (normalize fu x n))) xs -> Forall mok xs ->
  forall fin, Forall mok (fst (norm_or fu n xs fin)).
Proof.
  induction 1 as [|x t Hx _ IH]; intros Hm fin; cbn [norm_or]; [constructor|]. inversion Hm; subst.
  specialize (Hx H1 n). destruct (normalize fu x n) as [x1 tn].
  pose proof (mok_norm_target fin tn x1 Hx) as H3. destruct (norm_target fin tn x1) as [x2 f'].
  specialize (IH H2 f'). destruct (norm_or fu n t f') as [rest fin']. constructor; assumption.
Qed.

Lemma normalize_ok fu m : mok m -> forall n, mok (fst (normalize fu m n)).
Proof.
  induction m as [c xs Hc IHxs|m IHm|m IHm|m IHm|i|m IHm|m dd IHm|m dd IHm| |m dd IHm|m IHm] using meta_ind';
    intros Hm n.
  - apply (mok_list c xs Hc) in Hm. destruct Hc as [->| ->].
    + rewrite normalize_and. apply (mok_of_list MAnd); [left; reflexivity|].
      apply forall_filter, norm_and_ok; assumption.
    + rewrite normalize_or. pose proof (norm_or_ok fu n xs IHxs Hm n) as HF.
      destruct (norm_or fu n xs n) as [ys0 fin]. cbn [fst] in *.
      pose proof (forall_filter mok (fun x => negb (is_skip x)) ys0 HF) as HY.
      destruct (filter (fun x => negb (is_skip x)) ys0) as [|y [|z t]] eqn:EY; [exact I|inversion HY; assumption|].
      pose proof (forall_retain mok (y :: z :: t) false HY) as HR.
      destruct (retain_first_cmd (y :: z :: t) false) as [|y' [|z' t']]; [exact I|inversion HR; assumption|].
      change (mok (MOr (y' :: z' :: t'))). apply (mok_list MOr); [right; reflexivity|exact HR].
  - cbn [normalize]. specialize (IHm Hm n). destruct (normalize fu m n) as [x' n']. cbn [fst] in *.
    destruct x' as [| | x1 | x1 | | | x1 | | | | |]; try exact IHm; try exact I.
    destruct x1; try exact IHm.
  - cbn [normalize]. specialize (IHm Hm n). destruct (normalize fu m n) as [x' n']. cbn [fst] in *.
    destruct x'; try exact IHm; try exact I.
  - cbn [normalize]. apply IHm. exact Hm.
  - cbn [normalize fst mok]. apply iok_norm_item. exact Hm.
  - cbn [normalize]. specialize (IHm Hm n). destruct (normalize fu m n) as [x' n']. cbn [fst] in *.
    destruct x'; try exact IHm; try exact I.
  - cbn [normalize]. apply IHm. apply Hm.
  - cbn [normalize]. apply IHm. apply Hm.
  - exact I.
  - cbn [normalize]. destruct Hm as [Hm Hd]. specialize (IHm Hm n). destruct (normalize fu m n) as [x' n']. cbn [fst] in *.
    destruct fu; [|exact IHm]. destruct (is_nil dd); [exact I|]. split; assumption.
  - cbn [normalize]. specialize (IHm Hm n). destruct (normalize fu m n) as [x' n']. exact IHm.
Qed.

Lemma normalized_ok fu m : mok m -> mok (normalized fu m).
Proof.
  intros Hm. unfold normalized. pose proof (normalize_ok fu m Hm NPull) as H.
  destruct (normalize fu m NPull) as [m1 norm]. cbn [fst] in H.
  assert (H2 : mok (match m1 with MRequired i => i | x => x end)) by (destruct m1; exact H).
  set (m2 := match m1 with MRequired i => i | x => x end) in *.
  assert (H3 : mok (match m2 with MOr _ => MRequired m2 | x => x end)) by (destruct m2; exact H2).
  destruct norm; exact H3.
Qed.

Lemma position_first {A} (f : A -> bool) l x t :
  Forall (fun y => f y = false) l -> f x = true -> Help.position f (l ++ x :: t) = Some (length l).
Proof.
  intros Hl Hx. induction Hl as [|y l Hy _ IH]; cbn [app Help.position length]; [rewrite Hx; reflexivity|].
  rewrite Hy, IH. reflexivity.
Qed.
Lemma position_none {A} (f : A -> bool) l : Forall (fun y => f y = false) l -> Help.position f l = None.
Proof. induction 1 as [|y l Hy _ IH]; cbn [Help.position]; [reflexivity|]. rewrite Hy, IH. reflexivity. Qed.

Lemma firstn_length_app {A} (l r : list A) : firstn (length l) (l ++ r) = l.
Proof. induction l as [|x l IH]; cbn; [reflexivity|]. rewrite IH. reflexivity. Qed.
Lemma skipn_length_app {A} (l r : list A) : skipn (length l) (l ++ r) = r.
Proof. induction l as [|x l IH]; cbn; [reflexivity|exact IH]. Qed.

(* one turn of the loop drains the first group *)
Lemma write_groups_step env f d pl h ty mid ty' rest ie :
  Forall pok pl -> Forall pok mid ->
  write_groups env (S f) d (pl ++ HGroupStart h ty :: mid ++ HGroupEnd ty' :: rest) ie =
  write_groups env f (write_deduped env d (HGroupStart h ty :: mid ++ [HGroupEnd ty']) [] false ie) (pl ++ rest) ie.
Proof.
  intros Hpl Hmid. set (grp := HGroupStart h ty :: mid ++ [HGroupEnd ty']).
  assert (E : pl ++ HGroupStart h ty :: mid ++ HGroupEnd ty' :: rest = pl ++ grp ++ rest).
  { unfold grp. cbn [app]. rewrite <- app_assoc. reflexivity. }
  cbn [write_groups].
  rewrite position_first; [|eapply Forall_impl; [apply pok_not_start|exact Hpl]|reflexivity].
  assert (Hb : Help.position is_group_end (pl ++ HGroupStart h ty :: mid ++ HGroupEnd ty' :: rest)
               = Some (length pl + S (length mid))).
  { change (HGroupStart h ty :: mid ++ HGroupEnd ty' :: rest) with ((HGroupStart h ty :: mid) ++ HGroupEnd ty' :: rest).
    rewrite app_assoc, position_first; [rewrite app_length; reflexivity| |reflexivity].
    apply Forall_app. split; [|constructor; [reflexivity|]]; (eapply Forall_impl; [apply pok_not_end|assumption]). }
  rewrite Hb. replace (Nat.leb (length pl) (length pl + S (length mid))) with true by (symmetry; apply Nat.leb_le; lia).
  replace (S (length pl + S (length mid)) - length pl) with (length grp)
    by (unfold grp; cbn [length]; rewrite app_length; cbn [length]; lia).
  replace (S (length pl + S (length mid))) with (length (pl ++ grp))
    by (unfold grp; rewrite app_length; cbn [length]; rewrite app_length; cbn [length]; lia).
  rewrite E, skipn_length_app, !firstn_length_app, app_assoc, skipn_length_app. reflexivity.
Qed.

Definition ngroups (l : list helpitem) : nat := length (filter is_group_start l).
Lemma ngroups_app a b : ngroups (a ++ b) = ngroups a + ngroups b.
Proof. unfold ngroups. rewrite filter_app, app_length. reflexivity. Qed.
Lemma ngroups_plain l : Forall pok l -> ngroups l = 0.
Proof.
  induction 1 as [|y l Hy _ IH]; [reflexivity|]. unfold ngroups in *. cbn [filter].
  rewrite (pok_not_start y Hy). exact IH.
Qed.
Lemma ngroups_le_length l : ngroups l <= length l.
Proof.
  unfold ngroups. induction l as [|x l IH]; cbn [filter length]; [lia|].
  destruct (is_group_start x); cbn [length]; lia.
Qed.

Lemma wfi_split l : wfi l ->
  Forall pok l \/
  exists pl h ty mid ty' rest,
    l = pl ++ HGroupStart h ty :: mid ++ HGroupEnd ty' :: rest /\
    Forall pok pl /\ good h /\ Forall pok mid /\ wfi rest.
Proof.
  induction 1 as [|it l Hit Hl IH|h ty ty' mid l Hh Hm Hl IH].
  - left. constructor.
  - destruct IH as [IH|(pl & h & ty & mid & ty' & rest & E & A & B & C & D)].
    + left. constructor; assumption.
    + right. exists (it :: pl), h, ty, mid, ty', rest. subst l.
      split; [reflexivity|]. split; [constructor; assumption|]. split; [exact B|]. split; assumption.
  - right. exists [], h, ty, mid, ty', l.
    split; [reflexivity|]. split; [constructor|]. split; [exact Hh|]. split; assumption.
Qed.

Lemma forall_items_of_ty (P : helpitem -> Prop) ty : forall items blk, Forall P items -> Forall P (items_of_ty ty blk items).
Proof.
  induction items as [|it t IH]; intros blk H; cbn [items_of_ty]; [constructor|]. inversion H; subst.
  match goal with |- context [let '(keep, blk') := ?x in _] => destruct x as [keep blk'] end.
  destruct keep; [constructor; [assumption|]|]; apply IH; assumption.
Qed.

Lemma hok_helpitem_of i : iok i -> pok (helpitem_of i).
Proof. intros H. destruct i; split; try reflexivity; exact H. Qed.

Lemma append_ok m : mok m -> Forall pok (append_go m true []) /\ wfi (append_go m false []).
Proof.
  induction m as [c xs Hc IHxs|m IHm|m IHm|m IHm|i|m IHm|m dd IHm|m dd IHm| |m dd IHm|m IHm] using meta_ind';
    intros Hm.
  - apply (mok_list c xs Hc) in Hm. rewrite !(append_go_list c) by exact Hc.
    induction IHxs as [|x t Hx _ IH]; [split; constructor|]. inversion Hm; subst.
    rewrite !append_all_cons. destruct (Hx H1) as [A B]. destruct (IH H2) as [C D].
    split; [apply Forall_app; split; assumption|apply wfi_app; assumption].
  - cbn [append_go]. apply IHm, Hm.
  - cbn [append_go]. apply IHm, Hm.
  - cbn [append_go]. destruct (peek_front_ty m) as [ty|]; [|split; constructor].
    destruct (IHm Hm) as [A B]. cbn [app]. rewrite !(append_go_acc m _ [_]).
    assert (Hs : pok (HAnywhereStart m ty)) by (split; [reflexivity|exact Hm]).
    assert (He : pok (HAnywhereStop ty)) by (split; [reflexivity|exact I]).
    split.
    + cbn [app]. constructor; [exact Hs|]. apply Forall_app; split; [exact A|constructor; [exact He|constructor]].
    + cbn [app]. constructor; [exact Hs|]. apply wfi_app; [exact B|]. constructor; [exact He|constructor].
  - cbn [append_go]. destruct i as [mv a h|mv [h|]| | |]; try (split; [constructor; [|constructor]|constructor; [|constructor]]; apply hok_helpitem_of, Hm).
    split; constructor.
  - cbn [append_go]. apply IHm, Hm.
  - destruct Hm as [Hm Hd]. cbn [append_go]. destruct (peek_front_ty m) as [ty|]; [|split; constructor].
    destruct (IHm Hm) as [A B]. split; [exact A|].
    cbn [app]. rewrite (append_go_acc m _ [_]). cbn [app].
    apply (wfi_grp dd ty ty (append_go m true []) []); [exact Hd|exact A|constructor].
  - destruct Hm as [Hm Hd]. cbn [append_go]. destruct (peek_front_ty m) as [ty|]; [|split; constructor].
    destruct (IHm Hm) as [A B].
    assert (Hs : pok (HDecorSuffix dd ty)) by (split; [reflexivity|exact Hd]).
    split; [apply Forall_app; split; [exact A|constructor; [exact Hs|constructor]]|].
    apply wfi_app; [exact B|constructor; [exact Hs|constructor]].
  - split; constructor.
  - cbn [append_go]. apply IHm, Hm.
  - cbn [append_go]. apply IHm, Hm.
Qed.

Lemma append_meta_wfi acc m : wfi acc -> mok m -> wfi (append_meta acc m).
Proof.
  intros Ha Hm. unfold append_meta. rewrite append_go_acc. apply wfi_app; [exact Ha|apply append_ok, Hm].
Qed.

Lemma wfi_hok l : wfi l -> Forall hok l.
Proof.
  assert (P : forall l, Forall pok l -> Forall hok l) by (intros l0 H; eapply Forall_impl; [|exact H]; intros a Ha; apply Ha).
  induction 1 as [|it l [_ Hit] _ IH|h ty ty' mid l Hh Hm _ IH]; [constructor|constructor; assumption|].
  constructor; [exact Hh|]. apply Forall_app; split; [apply P, Hm|constructor; [exact I|exact IH]].
Qed.

Lemma mok_info_meta i : info_ok i -> mok (info_meta i).
Proof.
  intros (Hv & _ & _ & _ & _ & Hh & Hva). unfold info_meta.
  assert (F : forall n, named_ok n -> mok (meta_of (PFlag n VUnit None))).
  { intros n Hn. cbn [meta_of]. unfold flag_item. destruct (shortlong_of n); cbn; [exact Hn|exact I]. }
  destruct (i_version i); [|apply F, Hh].
  apply (mok_list MAnd); [left; reflexivity|]. repeat constructor; auto.
Qed.

Lemma help_items_wfi pm inf : mok pm -> info_ok inf -> wfi (append_meta (append_meta [] pm) (info_meta inf)).
Proof. intros Hm Hi. apply append_meta_wfi; [apply append_meta_wfi; [constructor|exact Hm]|apply mok_info_meta, Hi]. Qed.

Definition sec_ok (s : section) : Prop := mok (sec_meta s) /\ info_ok (sec_info s).

Lemma sections_ok : forall fuel m inf path secs,
  mok m -> info_ok inf -> sections_go fuel m inf path = Some secs -> Forall sec_ok secs.
Proof.
  induction fuel as [|f IH]; intros m inf path secs Hm Hi E; [discriminate|].
  cbn [sections_go] in E.
  match type of E with match ?each ?items with _ => _ end = _ =>
    assert (HE : forall its r, Forall hok its -> each its = Some r -> Forall sec_ok r)
  end.
  { induction its as [|it t IHt]; intros r Hh Er; [inversion Er; constructor|].
    inversion Hh; subst.
    destruct it; try (apply IHt; assumption).
    match type of Er with match ?a with _ => _ end = _ => destruct a as [x|] eqn:Ea; [|discriminate] end.
    match type of Er with match ?b with _ => _ end = _ => destruct b as [y|] eqn:Eb; [|discriminate] end.
    inversion Er; subst. apply Forall_app; split.
    - cbn [hok] in H1. destruct H1 as (_ & Hm' & Hi'). eapply IH; eassumption.
    - apply (IHt y H2 eq_refl). }
  match type of E with match ?x with _ => _ end = _ => destruct x as [rest|] eqn:Ex; [|discriminate] end.
  inversion E; subst. constructor; [split; assumption|].
  eapply HE; [|exact Ex]. apply wfi_hok. apply append_meta_wfi; [constructor|exact Hm].
Qed.

Fixpoint depth_all (xs : list meta) : nat :=
  match xs with [] => O | x :: t => Nat.max (meta_depth x) (depth_all t) end.
Lemma meta_depth_list c xs : list_node c -> meta_depth (c xs) = S (depth_all xs).
Proof. intros [->| ->]; reflexivity. Qed.

Definition cmd_depth_lt (n : nat) (it : helpitem) : Prop :=
  match it with HCommand _ _ _ m' _ => meta_depth m' < n | _ => True end.

Lemma cmd_depth_lt_mono n k l : n <= k -> Forall (cmd_depth_lt n) l -> Forall (cmd_depth_lt k) l.
Proof.
  intros Hle H. eapply Forall_impl; [|exact H]. intros x Hx. destruct x; cbn in *; try exact I. lia.
Qed.

Lemma append_depth m : forall b, Forall (cmd_depth_lt (meta_depth m)) (append_go m b []).
Proof.
  induction m as [c xs Hc IHxs|m IHm|m IHm|m IHm|i|m IHm|m dd IHm|m dd IHm| |m dd IHm|m IHm] using meta_ind';
    intros b.
  - rewrite (append_go_list c), (meta_depth_list c) by exact Hc.
    induction IHxs as [|x t Hx _ IH]; [constructor|]. rewrite append_all_cons. cbn [depth_all].
    apply Forall_app; split;
      [apply (cmd_depth_lt_mono (meta_depth x)); [lia|apply Hx]|apply (cmd_depth_lt_mono (S (depth_all t))); [lia|exact IH]].
  - cbn [append_go meta_depth]. apply (cmd_depth_lt_mono (meta_depth m)); [lia|apply IHm].
  - cbn [append_go meta_depth]. apply (cmd_depth_lt_mono (meta_depth m)); [lia|apply IHm].
  - cbn [append_go meta_depth]. destruct (peek_front_ty m); [|constructor].
    cbn [app]. rewrite (append_go_acc m _ [_]). cbn [app].
    constructor; [exact I|]. apply Forall_app; split; [apply (cmd_depth_lt_mono (meta_depth m)); [lia|apply IHm]|constructor; [exact I|constructor]].
  - cbn [append_go]. destruct i as [mv a h|mv [h|]| | |]; try (constructor; [|constructor]); try constructor; cbn; try exact I; try lia.
  - cbn [append_go meta_depth]. apply (cmd_depth_lt_mono (meta_depth m)); [lia|apply IHm].
  - cbn [append_go meta_depth]. destruct (peek_front_ty m); [|constructor]. destruct b.
    + apply (cmd_depth_lt_mono (meta_depth m)); [lia|apply IHm].
    + cbn [app]. rewrite (append_go_acc m _ [_]). cbn [app]. constructor; [exact I|].
      apply Forall_app; split; [apply (cmd_depth_lt_mono (meta_depth m)); [lia|apply IHm]|constructor; [exact I|constructor]].
  - cbn [append_go meta_depth]. destruct (peek_front_ty m); [|constructor].
    apply Forall_app; split; [apply (cmd_depth_lt_mono (meta_depth m)); [lia|apply IHm]|constructor; [exact I|constructor]].
  - constructor.
  - cbn [append_go meta_depth]. apply (cmd_depth_lt_mono (meta_depth m)); [lia|apply IHm].
  - cbn [append_go meta_depth]. apply (cmd_depth_lt_mono (meta_depth m)); [lia|apply IHm].
Qed.

Lemma sections_total : forall fuel m inf path, meta_depth m < fuel -> exists secs, sections_go fuel m inf path = Some secs.
Proof.
  induction fuel as [|f IH]; intros m inf path Hd; [lia|].
  cbn [sections_go].
  match goal with |- context [?each (append_meta [] m)] =>
    assert (HE : forall its, Forall (cmd_depth_lt f) its -> exists r, each its = Some r)
  end.
  { induction its as [|it t IHt]; intros Hh; [eexists; reflexivity|].
    inversion Hh as [|x l Hx Hl]; subst. destruct (IHt Hl) as [r Er].
    destruct it; try (exists r; exact Er).
    cbn in Hx. destruct (IH m0 i (path ++ [name]) Hx) as [a Ea].
    exists (a ++ r). rewrite Ea, Er. reflexivity. }
  destruct (HE (append_meta [] m)) as [r Er].
  - apply (cmd_depth_lt_mono (meta_depth m)); [lia|apply append_depth].
  - rewrite Er. eexists; reflexivity.
Qed.

Lemma sections_exist app m inf : mok m -> info_ok inf ->
  exists secs, extract_sections m inf app = Some secs /\ Forall sec_ok secs.
Proof.
  intros Hm Hi. unfold extract_sections.
  destruct (sections_total (S (meta_depth m)) m inf [app]) as [secs E]; [lia|].
  exists secs. split; [exact E|]. eapply sections_ok; eassumption.
Qed.

Lemma fold_inv {A S} (Inv : A -> Prop) (P : S -> Prop) (F : A -> S -> A) l :
  (forall s a, P s -> Inv a -> Inv (F a s)) -> Forall P l -> forall a, Inv a -> Inv (fold_left F l a).
Proof. intros HF. induction 1 as [|s l Hs _ IH]; intros a Ha; cbn [fold_left]; auto. Qed.

Lemma fold_some {A S} (Inv : A -> Prop) (P : S -> Prop) (F : option A -> S -> option A) l :
  (forall s a, P s -> Inv a -> exists a', F (Some a) s = Some a' /\ Inv a') ->
  Forall P l -> forall a, Inv a -> exists a', fold_left F l (Some a) = Some a' /\ Inv a'.
Proof.
  intros HF. induction 1 as [|s l Hs _ IH]; intros a Ha; cbn [fold_left]; [eauto|].
  destruct (HF s a Hs Ha) as (a' & -> & Ha'). apply IH, Ha'.
Qed.

Section Writers.
Variable ok : block -> bool.
(* the blocks bpaf itself writes are user blocks; the side conditions `ok b = true` they raise below are
   left to `auto`, which finds them through this hypothesis *)
Hypothesis Hok : forall b, userblock b = true -> ok b = true.
Variable env : bytes -> option bytes.

Lemma good_cneutral d : good d -> cneutral ok d.
Proof.
  intros [N A]. apply cneutral_spec. split; [exact N|].
  unfold allowed in *. rewrite forallb_forall in *. intros t Ht. specialize (A t Ht).
  destruct t; [reflexivity|apply Hok, A|apply Hok, A].
Qed.

Lemma pushes_refl d : pushes ok [] d d.
Proof. intros st. destruct (crun ok st d); reflexivity. Qed.

Lemma pushes_app k pre d e : cneutral ok e -> pushes ok k pre d -> pushes ok k pre (d ++ e).
Proof.
  intros He H st. rewrite crun_app, H. destruct (crun ok st pre); cbn; [apply He|reflexivity].
Qed.
Lemma pushes_start k pre d b : ok b = true -> pushes ok k pre d -> pushes ok (b :: k) pre (dtok d (TStart b)).
Proof.
  intros Hb H st. unfold dtok. rewrite crun_app, H. destruct (crun ok st pre); cbn; [rewrite Hb|]; reflexivity.
Qed.
Lemma pushes_end k pre d b : ok b = true -> pushes ok (b :: k) pre d -> pushes ok k pre (dtok d (TEnd b)).
Proof.
  intros Hb H st. unfold dtok. rewrite crun_app, H.
  destruct (crun ok st pre); cbn; [rewrite Hb, block_eqb_refl|]; reflexivity.
Qed.

Lemma crun_dwrite d sty s st : crun ok st (dwrite d sty s) = crun ok st d.
Proof.
  destruct (dwrite_spec d sty s) as [->|(r & s' & -> & ->)]; rewrite !crun_app;
    destruct (crun ok st _); reflexivity.
Qed.

Lemma pushes_dwrite k pre d sty s : pushes ok k pre d -> pushes ok k pre (dwrite d sty s).
Proof. intros H st. rewrite crun_dwrite. apply H. Qed.
Lemma pushes_dchar k pre d sty c : pushes ok k pre d -> pushes ok k pre (dchar d sty c).
Proof. apply pushes_dwrite. Qed.

Lemma ddoc_toks d buf : ddoc d buf = dtok (dtok d (TStart BInlineBlock) ++ buf) (TEnd BInlineBlock).
Proof. unfold ddoc, dtok. rewrite <- !app_assoc. reflexivity. Qed.

Lemma pushes_ddoc k pre d buf : good buf -> pushes ok k pre d -> pushes ok k pre (ddoc d buf).
Proof.
  intros Hb H. rewrite ddoc_toks. apply pushes_end, pushes_app, pushes_start, H; auto using good_cneutral.
Qed.

Lemma pushes_dem_doc k pre d buf : good buf -> pushes ok k pre d -> pushes ok k pre (dem_doc d buf).
Proof.
  intros Hb H. unfold dem_doc. apply pushes_end; [auto|].
  assert (H0 : pushes ok (BInlineBlock :: k) pre (dtok d (TStart BInlineBlock))) by (apply pushes_start; auto).
  destruct buf as [|[sty prefix|b|b] rest]; try (apply pushes_app; [apply good_cneutral, Hb|exact H0]).
  destruct sty; try (apply pushes_app; [apply good_cneutral, Hb|exact H0]).
  destruct (split_once_nl prefix) as [[a b]|]; [|apply pushes_dwrite, H0].
  (* the rest of a good document that begins with a text is neutral as well *)
  apply pushes_end, pushes_app, pushes_dwrite, pushes_start, pushes_dwrite, H0; auto.
  exact (good_cneutral _ Hb).
Qed.

Lemma pushes_dmetavar k pre d mv : pushes ok k pre d -> pushes ok k pre (dmetavar d mv).
Proof. intros H. unfold dmetavar. destruct (forallb is_metavar_char mv); repeat apply pushes_dwrite; exact H. Qed.

Lemma pushes_dshortlong_usage k pre d n : pushes ok k pre d -> pushes ok k pre (dshortlong_usage d n).
Proof. intros H. destruct n; cbn [dshortlong_usage]; repeat apply pushes_dwrite; exact H. Qed.

Lemma pushes_dshortlong_item k pre d n : pushes ok k pre d -> pushes ok k pre (dshortlong_item d n).
Proof. intros H. destruct n; cbn [dshortlong_item]; repeat apply pushes_dwrite; exact H. Qed.

Lemma pushes_dwrite_item k pre d i : iok i -> pushes ok k pre d -> pushes ok k pre (dwrite_item d i).
Proof.
  intros Hi H. destruct i; cbn [dwrite_item].
  - apply pushes_ddoc; [apply Hi|exact H].
  - apply pushes_dmetavar, H.
  - apply pushes_dwrite, H.
  - apply pushes_dshortlong_usage, H.
  - apply pushes_dmetavar, pushes_dchar, pushes_dshortlong_usage, H.
Qed.

Lemma pushes_wm_sep k pre s xs :
  Forall (fun m => mok m -> forall d, pushes ok k pre d -> pushes ok k pre (wm_go m d)) xs -> Forall mok xs ->
  forall first d, pushes ok k pre d -> pushes ok k pre (wm_sep s first xs d).
Proof.
  induction 1 as [|x t Hx _ IH]; intros Hm first d H; cbn [wm_sep]; [exact H|]. inversion Hm; subst.
  apply IH; [assumption|]. apply Hx; [assumption|]. destruct first; [exact H|apply pushes_dwrite, H].
Qed.

Lemma pushes_wm_go k pre m : mok m -> forall d, pushes ok k pre d -> pushes ok k pre (wm_go m d).
Proof.
  induction m as [c xs Hc IHxs|m IHm|m IHm|m IHm|i|m IHm|m dd IHm|m dd IHm| |m dd IHm|m IHm] using meta_ind';
    intros Hm d H; cbn [wm_go].
  - destruct (wm_go_list c xs Hc) as [s E]. rewrite E. apply (mok_list c xs Hc) in Hm.
    apply pushes_wm_sep; assumption.
  - apply pushes_dwrite, IHm, pushes_dwrite, H. exact Hm.
  - apply pushes_dwrite, IHm, pushes_dwrite, H. exact Hm.
  - apply IHm; assumption.
  - apply pushes_dwrite_item; assumption.
  - apply pushes_dwrite, IHm; assumption.
  - apply IHm; [apply Hm|exact H].
  - apply IHm; [apply Hm|exact H].
  - exact H.
  - apply pushes_ddoc; [apply Hm|exact H].
  - apply IHm; [exact Hm|]. apply pushes_dwrite, pushes_dwrite, H.
Qed.

Lemma pushes_dwrite_meta k pre d m fu : mok m -> pushes ok k pre d -> pushes ok k pre (dwrite_meta d m fu).
Proof.
  intros Hm H. unfold dwrite_meta. apply pushes_end; [auto|]. apply pushes_wm_go; [apply normalized_ok, Hm|].
  apply pushes_start; auto.
Qed.

Lemma pushes_dwrite_path k pre path : forall d, pushes ok k pre d -> pushes ok k pre (dwrite_path d path).
Proof.
  unfold dwrite_path. induction path as [|p t IH]; intros d H; cbn [fold_left]; [exact H|].
  apply IH. apply pushes_dchar, pushes_dwrite, H.
Qed.

(* the shape shared by dbody and dblock *)
Lemma pushes_opt_block k pre d b h : ok b = true -> ogood h -> pushes ok k pre d ->
  pushes ok k pre (match h with Some x => dtok (ddoc (dtok d (TStart b)) x) (TEnd b) | None => d end).
Proof.
  intros Hb Hh H. destruct h as [x|]; [|exact H]. apply pushes_end, pushes_ddoc, pushes_start, H; assumption.
Qed.
Lemma pushes_dbody k pre d h : ogood h -> pushes ok k pre d -> pushes ok k pre (dbody d h).
Proof. apply pushes_opt_block. auto. Qed.
Lemma pushes_dblock k pre d t : ogood t -> pushes ok k pre d -> pushes ok k pre (dblock d t).
Proof. apply pushes_opt_block. auto. Qed.

Lemma pushes_denv_line k pre d a b e v : pushes ok k pre d -> pushes ok k pre (denv_line d a b e v).
Proof.
  intros H. unfold denv_line. apply pushes_end; [auto|].
  assert (H1 : pushes ok k pre (if a then dtok (dtok d (TStart BItemTerm)) (TEnd BItemTerm) else d)).
  { destruct a; [apply pushes_end, pushes_start, H; auto|exact H]. }
  destruct b; repeat apply pushes_dwrite; apply pushes_start; auto.
Qed.

Lemma pushes_item_plain k pre d it ie :
  pok it -> pushes ok k pre d -> pushes ok k pre (write_help_item env d it ie).
Proof.
  intros [Hp Hk] H. destruct it as [help ty|help ty|ty|metavar anywhere help|metavar help|name short help m i|name var help|name metavar var help|inner ty|ty]; cbn [write_help_item]; try discriminate Hp; cbn [hok] in Hk.
  - apply pushes_end, pushes_ddoc, pushes_start, pushes_end, pushes_start, H; auto.
  - apply pushes_dbody; [apply Hk|]. apply pushes_end, pushes_ddoc, pushes_start, H; auto. apply Hk.
  - apply pushes_dbody; [apply Hk|]. apply pushes_end, pushes_dmetavar, pushes_start, H; auto.
  - apply pushes_dbody; [apply Hk|]. apply pushes_end; [auto|].
    destruct short; [apply pushes_dchar, pushes_dwrite|]; apply pushes_dwrite, pushes_start, H; auto.
  - assert (H1 : pushes ok k pre (dbody (dtok (dshortlong_item (dtok d (TStart BItemTerm)) name) (TEnd BItemTerm)) help)).
    { apply pushes_dbody; [exact Hk|]. apply pushes_end, pushes_dshortlong_item, pushes_start, H; auto. }
    destruct var; [apply pushes_denv_line|]; exact H1.
  - assert (H1 : pushes ok k pre (dbody (dtok (dmetavar (dchar (dshortlong_item (dtok d (TStart BItemTerm)) name) SText c_eq) metavar)
                                           (TEnd BItemTerm)) help)).
    { apply pushes_dbody; [exact Hk|].
      apply pushes_end, pushes_dmetavar, pushes_dchar, pushes_dshortlong_item, pushes_start, H; auto. }
    destruct var; [apply pushes_denv_line|]; exact H1.
  - apply pushes_end, pushes_dwrite_meta, pushes_start, H; auto.
  - apply pushes_end, pushes_start, H; auto.
Qed.

Lemma pushes_group_start k pre d h ty ie :
  good h -> pushes ok k pre d -> pushes ok (BDefinitionList :: BBlock :: k) pre (write_help_item env d (HGroupStart h ty) ie).
Proof.
  intros Hh H. cbn [write_help_item].
  apply pushes_start, pushes_end, pushes_dem_doc, pushes_start, pushes_start, H; auto.
Qed.
Lemma pushes_group_end k pre d ty ie :
  pushes ok (BDefinitionList :: BBlock :: k) pre d -> pushes ok k pre (write_help_item env d (HGroupEnd ty) ie).
Proof. intros H. cbn [write_help_item]. apply pushes_end, pushes_end, H; auto. Qed.

Lemma pushes_deduped_plain k pre items ie : Forall pok items ->
  forall d seen kf, pushes ok k pre d -> pushes ok k pre (write_deduped env d items seen kf ie).
Proof.
  induction 1 as [|it t Hit _ IH]; intros d seen kf H; cbn [write_deduped]; [exact H|].
  destruct (dedup_check seen kf it) as [[keep seen'] kf']. apply IH.
  destruct keep; [apply pushes_item_plain; assumption|exact H].
Qed.

(* one group: the start is always kept and opens two blocks, the end closes them *)
Lemma pushes_deduped_group k pre d h ty ty' mid ie :
  good h -> Forall pok mid -> pushes ok k pre d ->
  pushes ok k pre (write_deduped env d (HGroupStart h ty :: mid ++ [HGroupEnd ty']) [] false ie).
Proof.
  intros Hh Hm H. cbn [write_deduped dedup_check].
  pose proof (pushes_group_start k pre d h ty ie Hh H) as H1. revert H1.
  generalize (write_help_item env d (HGroupStart h ty) ie) (@nil dkey) true.
  induction Hm as [|it t Hit _ IH]; intros d1 seen kf H1; cbn [app write_deduped].
  - cbn [dedup_check]. apply pushes_group_end, H1.
  - destruct (dedup_check seen kf it) as [[keep seen'] kf']. apply IH.
    destruct keep; [apply pushes_item_plain; assumption|exact H1].
Qed.

(* each turn removes one group, so one more unit of fuel than there are groups suffices *)
Lemma pushes_write_groups k pre ie : forall fuel items d,
  wfi items -> ngroups items < fuel -> pushes ok k pre d ->
  exists d' rest, write_groups env fuel d items ie = Some (d', rest) /\ pushes ok k pre d' /\ Forall pok rest.
Proof.
  induction fuel as [|f IH]; intros items d Hw Hn H; [lia|].
  destruct (wfi_split items Hw) as [Hp|(pl & h & ty & mid & ty' & rest & E & A & B & C & D)].
  - cbn [write_groups]. rewrite position_none by (eapply Forall_impl; [apply pok_not_start|exact Hp]).
    exists d, items. auto.
  - subst items. rewrite write_groups_step by assumption. apply IH.
    + apply wfi_app; [apply wfi_of_plain, A|exact D].
    + rewrite ngroups_app, (ngroups_plain pl A) in *.
      change (ngroups (HGroupStart h ty :: mid ++ HGroupEnd ty' :: rest))
        with (S (ngroups (mid ++ HGroupEnd ty' :: rest))) in Hn.
      rewrite ngroups_app, (ngroups_plain mid C) in Hn.
      change (ngroups (HGroupEnd ty' :: rest)) with (ngroups rest) in Hn. lia.
    + apply pushes_deduped_group; assumption.
Qed.

Lemma pushes_write_help_items k pre d items ty name ie :
  Forall pok items -> pushes ok k pre d -> pushes ok k pre (write_help_items env d items ty name ie).
Proof.
  intros Hi H. unfold write_help_items.
  pose proof (forall_items_of_ty pok ty items IBNo Hi) as Hx.
  destruct (items_of_ty ty IBNo items) as [|x xs]; [exact H|].
  apply pushes_end, pushes_end, pushes_deduped_plain, pushes_start, pushes_end, pushes_dwrite, pushes_start,
    pushes_start, H; auto.
Qed.

Lemma pushes_write_help_item_groups k pre d items ie :
  wfi items -> pushes ok k pre d ->
  exists d', write_help_item_groups env d items ie = Some d' /\ pushes ok k pre d'.
Proof.
  intros Hw H. unfold write_help_item_groups.
  destruct (pushes_write_groups k pre ie (S (length items)) items d Hw) as (d1 & rest & E & H1 & Hr);
    [pose proof (ngroups_le_length items); lia|exact H|].
  rewrite E. eexists; split; [reflexivity|].
  repeat apply pushes_write_help_items; assumption.
Qed.

Theorem render_help_cneutral path inf pm hm ie :
  info_ok inf -> mok pm -> mok hm -> exists d, render_help env path inf pm hm ie = Some d /\ cneutral ok d.
Proof.
  intros (Hv & Hd & Hh & Hf & Hu & Hha & Hva) Hpm Hhm. unfold render_help.
  assert (H0 : pushes ok [] [] (dblock [] (i_descr inf))) by (apply pushes_dblock; [exact Hd|apply pushes_refl]).
  match goal with |- context [write_help_item_groups env ?d3 ?items ie] =>
    destruct (pushes_write_help_item_groups [] [] d3 items ie) as (d4 & E & H4)
  end.
  - apply append_meta_wfi; [apply append_meta_wfi; [constructor|exact Hpm]|exact Hhm].
  - apply pushes_dblock; [exact Hh|]. apply pushes_end; [auto|].
    assert (H1 : pushes ok [BBlock] [] (dtok (dblock [] (i_descr inf)) (TStart BBlock))) by (apply pushes_start; auto).
    destruct (i_usage inf) as [u|]; [apply pushes_ddoc; assumption|].
    apply pushes_end, pushes_dwrite_meta, pushes_dwrite_path, pushes_start, pushes_dwrite, pushes_dwrite, H1; auto.
  - rewrite E. eexists; split; [reflexivity|]. apply pushes_nil_cneutral, pushes_dblock; assumption.
Qed.

Lemma pushes_header k pre d s :
  pushes ok k pre d -> pushes ok k pre (dtok (dtext (dtok d (TStart BHeader)) s) (TEnd BHeader)).
Proof. intros H. apply pushes_end, pushes_dwrite, pushes_start, H; auto. Qed.

Theorem collect_html_cneutral app m inf :
  mok m -> info_ok inf -> exists d, collect_html env app m inf = Some d /\ cneutral ok d.
Proof.
  intros Hm Hi. unfold collect_html. destruct (sections_exist app m inf Hm Hi) as (secs & -> & Hs).
  match goal with |- exists d, fold_left ?F secs (Some ?d0) = Some d /\ _ =>
    destruct (fold_some (pushes ok [] []) sec_ok F secs) with (a := d0) as (d & E & H); [|exact Hs| |]
  end.
  - intros s d [Hsm Hsi] H.
    destruct (render_help_cneutral (sec_path s) (sec_info s) (sec_meta s) (info_meta (sec_info s)) false Hsi Hsm
                                   (mok_info_meta _ Hsi)) as (b & -> & Hb).
    eexists; split; [reflexivity|]. rewrite ddoc_toks.
    apply pushes_end, pushes_app, pushes_start, pushes_header, H; auto.
  - destruct secs as [|s1 [|s2 t]]; try apply pushes_refl.
    apply (fold_inv (pushes ok [] []) (fun _ => True)); [|apply Forall_forall; auto|].
    + intros s d _ H. apply pushes_end, pushes_dwrite, pushes_start, H; auto.
    + apply pushes_end, pushes_header, pushes_start, pushes_refl; auto.
  - exists d. split; [exact E|apply pushes_nil_cneutral, H].
Qed.

Theorem manpage_doc_cneutral app m inf : ok BMeta = true ->
  mok m -> info_ok inf -> exists d, manpage_doc env app m inf = Some d /\ cneutral ok d.
Proof.
  intros HMeta Hm Hi. unfold manpage_doc. destruct (sections_exist app m inf Hm Hi) as (secs & -> & Hs).
  set (many := match secs with _ :: _ :: _ => true | _ => false end).
  match goal with |- exists d, fold_left ?F secs (Some ?d0) = Some d /\ _ =>
    destruct (fold_some (pushes ok [] []) sec_ok F secs) with (a := d0) as (d & E & H); [|exact Hs| |]
  end.
  - intros s d [Hsm Hsi] H. pose proof Hsi as (Hv & Hd & Hh & Hf & Hu & Hha & Hva).
    match goal with |- context [write_help_item_groups env ?d5 ?items false] =>
      destruct (pushes_write_help_item_groups [] [] d5 items false) as (d6 & -> & H6)
    end.
    + apply help_items_wfi; assumption.
    + apply pushes_dblock, pushes_dwrite_meta, pushes_dwrite_path, pushes_header; try assumption.
      assert (H1 : pushes ok [] [] (if many then dtok (dwrite_path (dtok d (TStart BHeader)) (sec_path s)) (TEnd BHeader) else d)).
      { destruct many; [|exact H]. apply pushes_end, pushes_dwrite_path, pushes_start, H; auto. }
      destruct (i_descr (sec_info s)) as [descr|]; [|exact H1].
      apply pushes_ddoc; [exact Hd|]. apply pushes_dwrite, pushes_dwrite, pushes_header, H1.
    + eexists; split; [reflexivity|]. apply pushes_dblock; assumption.
  - destruct many; [|apply pushes_refl]. apply pushes_end; [exact HMeta|].
    apply (fold_inv (pushes ok [BMeta] []) sec_ok); [|exact Hs|].
    + intros s d Hsk H. apply pushes_dwrite, pushes_dwrite_meta; [apply Hsk|].
      apply (fold_inv (pushes ok [BMeta] []) (fun _ => True)); [|apply Forall_forall; auto|exact H].
      intros p d1 _ H1. apply pushes_dwrite, pushes_dwrite, H1.
    + apply pushes_start; [exact HMeta|]. apply pushes_end, pushes_header, pushes_start, pushes_refl; auto.
  - exists d. split; [exact E|apply pushes_nil_cneutral, H].
Qed.
End Writers.

Section Groups.
Variable env : bytes -> option bytes.

Theorem write_help_item_groups_ok k pre d items ie :
  wfi items -> extk k pre d ->
  exists d', write_help_item_groups env d items ie = Some d' /\ extk k pre d'.
Proof.
  intros Hw H. apply extk_pushes in H.
  destruct (pushes_write_help_item_groups (fun _ => true) (fun _ _ => eq_refl) env k pre d items ie Hw H)
    as (d' & E & H').
  exists d'. split; [exact E|apply extk_pushes, H'].
Qed.
End Groups.

(* hidden parts contribute nothing to any document *)
Fixpoint pdok (p : parser) : Prop :=
  match p with
  | PFlag n _ _ | PArg n _ _ _ => named_ok n
  | PPos _ _ _ help => ogood help
  | PAny mv help _ _ => good mv /\ ogood help
  | PCmd _ _ _ help _ sub => ogood help /\ odok sub
  | PCon fs | PAdj fs => pldok fs
  | POr a b => pdok a /\ pdok b
  | POptional q _ | PMany q _ | PSome q _ _ | PCollect q _ | PCount q | PLast q
  | PFallback q _ _ | PFallbackWith q _ _ | PGuard q _ _ | PParse q _ | PMap q _ | PBoxed q => pdok q
  | PUsage q d | PGroupHelp q d => pdok q /\ good d
  | PHide _ | PPure _ | PPureWith _ | PFail _ => True
  end
with pldok (ps : plist) : Prop :=
  match ps with PNil => True | PCons q t => pdok q /\ pldok t end
with odok (o : oparser) : Prop :=
  match o with Options q i => pdok q /\ info_ok i end.

Lemma mok_meta_or a b : mok a -> mok b -> mok (meta_or a b).
Proof.
  intros Ha Hb. unfold meta_or.
  assert (HA : forall m, mok m -> Forall mok (alts m)).
  { intros m Hm. destruct m; cbn [alts]; try (constructor; [exact Hm|constructor]); try constructor.
    apply (mok_list MOr); [right; reflexivity|exact Hm]. }
  assert (H : Forall mok (alts a ++ alts b)) by (apply Forall_app; auto).
  destruct (alts a ++ alts b) as [|x [|y t]]; [exact I|inversion H; assumption|].
  apply (mok_list MOr); [right; reflexivity|exact H].
Qed.

Lemma mok_with_suffix m shown : mok m -> mok (with_suffix m shown).
Proof.
  intros H. unfold with_suffix. destruct (is_nil shown); [exact H|]. split; [exact H|apply good_text].
Qed.

Theorem meta_of_ok :
  (forall p, pdok p -> mok (meta_of p)) /\
  (forall ps, pldok ps -> Forall mok (metas_of ps) /\ mok (con_meta ps)) /\
  (forall o, odok o -> mok (ometa_of o) /\ info_ok (oinfo_of o)).
Proof.
  (* a wrapper passes the metadata of its argument through, at most adding a suffix made of a text *)
  apply parser_plist_oparser_ind; intros; cbn [meta_of metas_of con_meta ometa_of oinfo_of] in *;
    try (apply mok_with_suffix); try (apply H, H0); try exact I.
  - (* PFlag *) unfold flag_item. destruct (shortlong_of n); cbn [option_map]; [|exact I]. destruct absent; exact H.
  - (* PArg *) unfold arg_item. destruct (shortlong_of n); cbn [option_map]; [exact H|exact I].
  - (* PPos *) destruct pos; exact H.
  - (* PAny *) exact H.
  - (* PCmd *) cbn [pdok] in H0. destruct H0 as [Hh Ho]. destruct (H Ho) as [A B]. cbn [mok iok]. auto.
  - (* POr *) destruct H1. apply mok_meta_or; auto.
  - (* PUsage *) destruct H0. split; auto.
  - (* PGroupHelp *) destruct H0. split; auto.
  - (* PNil *) split; [constructor|exact I].
  - (* PCons *) cbn [pldok] in H1. destruct H1 as [Hq Ht]. destruct (H0 Ht) as [A B]. split.
    + constructor; auto.
    + match goal with |- context [match ?ps with PNil => _ | PCons _ _ => _ end] => destruct ps as [|q2 t] end;
        [apply H, Hq|]. apply (mok_list MAnd); [left; reflexivity|]. constructor; auto.
  - (* Options *) cbn [odok] in H0. destruct H0. auto.
Qed.

Lemma odok_ok o : odok o -> mok (ometa_of o) /\ info_ok (oinfo_of o).
Proof. apply meta_of_ok. Qed.

Lemma cneutral_bal ok d : cneutral ok d -> bal [] d = true.
Proof. intros H. apply neutral_bal, (cneutral_spec ok d), H. Qed.

Theorem html_document_total_balanced env app o : odok o ->
  exists d, collect_html env app (ometa_of o) (oinfo_of o) = Some d /\ bal [] d = true.
Proof.
  intros Ho. destruct (odok_ok o Ho) as [Hm Hi].
  destruct (collect_html_cneutral userblock (fun _ H => H) env app _ _ Hm Hi) as (d & E & N).
  exists d. split; [exact E|apply (cneutral_bal _ _ N)].
Qed.

Theorem manpage_document_total_balanced env app o : odok o ->
  exists d, manpage_doc env app (ometa_of o) (oinfo_of o) = Some d /\ bal [] d = true.
Proof.
  intros Ho. destruct (odok_ok o Ho) as [Hm Hi].
  destruct (manpage_doc_cneutral (fun _ => true) (fun _ _ => eq_refl) env app _ _ eq_refl Hm Hi) as (d & E & N).
  exists d. split; [exact E|apply (cneutral_bal _ _ N)].
Qed.

Theorem help_document_total_balanced env path o ie : odok o ->
  exists d, render_help env path (oinfo_of o) (ometa_of o) (info_meta (oinfo_of o)) ie = Some d /\ bal [] d = true.
Proof.
  intros Ho. destruct (odok_ok o Ho) as [Hm Hi].
  destruct (render_help_cneutral userblock (fun _ H => H) env path _ _ _ ie Hi Hm (mok_info_meta _ Hi)) as (d & E & N).
  exists d. split; [exact E|apply (cneutral_bal _ _ N)].
Qed.

Theorem html_well_nested_parser env app o full d evs : odok o ->
  collect_html env app (ometa_of o) (oinfo_of o) = Some d ->
  render_html_events full d = Some evs -> wn [] evs = Some [].
Proof.
  intros Ho E R. destruct (html_document_total_balanced env app o Ho) as (d' & E' & B).
  rewrite E in E'. inversion E'; subst d'. exact (html_well_nested full d evs B R).
Qed.

(* html and markdown: Block::Meta is todo!(); roff: Block::TermRef is todo!().  The documents bpaf builds for
   a parser contain neither (the manpage document contains Meta, which roff renders). *)
Definition no_meta (b : block) : bool := match b with BMeta => false | _ => true end.
Definition no_termref (b : block) : bool := match b with BTermRef => false | _ => true end.

Lemma user_no_meta b : userblock b = true -> no_meta b = true.
Proof. destruct b; auto. Qed.
Lemma user_no_termref b : userblock b = true -> no_termref b = true.
Proof. destruct b; auto. Qed.

Lemma html_step_some full st t : tok_ok no_meta t = true -> html_step full st t <> None.
Proof.
  destruct t as [sty s|b|b].
  - cbn [html_step]. destruct (Nat.ltb 0 (hs_skip st)); [discriminate|]. destruct (html_chunks full (split true s)); discriminate.
  - destruct b; intros H; try discriminate H; discriminate.
  - destruct b; intros H; try discriminate H; discriminate.
Qed.

Lemma md_step_some full st t next : tok_ok no_meta t = true -> md_step full st t next <> None.
Proof.
  destruct t as [sty s|b|b].
  - cbn [md_step]. destruct (Nat.ltb 0 (ms_skip st)); [discriminate|].
    destruct (md_chunks full (split true s) (md_style st (styles_of sty))); discriminate.
  - destruct b; intros H; try discriminate H; discriminate.
  - destruct b; intros H; try discriminate H; discriminate.
Qed.

Lemma roff_step_some st t : tok_ok no_termref t = true -> roff_step st t <> None.
Proof.
  destruct t as [sty s|b|b].
  - cbn [roff_step]. destruct (rs_capturing st); discriminate.
  - destruct b; intros H; try discriminate H; discriminate.
  - destruct b; intros H; try discriminate H; discriminate.
Qed.

Lemma html_run_some full : forall d st, allowed no_meta d = true -> exists evs, html_run full st d = Some evs.
Proof.
  induction d as [|t d IH]; intros st H; cbn [html_run]; [eexists; reflexivity|].
  rewrite allowed_cons in H. apply andb_prop in H. destruct H as [Ht Hd].
  destruct (html_step full st t) as [[e st']|] eqn:Es; [|destruct (html_step_some full st t Ht Es)].
  destruct (IH st' Hd) as [r ->]. eexists; reflexivity.
Qed.

Lemma md_run_some full : forall d st, allowed no_meta d = true -> exists st', md_run full st d = Some st'.
Proof.
  induction d as [|t d IH]; intros st H; cbn [md_run]; [eexists; reflexivity|].
  rewrite allowed_cons in H. apply andb_prop in H. destruct H as [Ht Hd].
  destruct (md_step full st t (hd_error d)) as [st'|] eqn:Es; [|destruct (md_step_some full st t _ Ht Es)].
  apply IH, Hd.
Qed.

Lemma roff_frags_some : forall d st, allowed no_termref d = true -> exists fs, roff_frags st d = Some fs.
Proof.
  induction d as [|t d IH]; intros st H; cbn [roff_frags]; [eexists; reflexivity|].
  rewrite allowed_cons in H. apply andb_prop in H. destruct H as [Ht Hd].
  destruct (roff_step st t) as [[e st']|] eqn:Es; [|destruct (roff_step_some st t Ht Es)].
  destruct (IH st' Hd) as [r ->]. eexists; reflexivity.
Qed.

Theorem render_html_returns env app o full : odok o ->
  exists d html, collect_html env app (ometa_of o) (oinfo_of o) = Some d /\ render_html full d = Some html.
Proof.
  intros Ho. destruct (odok_ok o Ho) as [Hm Hi].
  destruct (collect_html_cneutral no_meta user_no_meta env app _ _ Hm Hi) as (d & E & N).
  apply cneutral_spec in N. destruct (html_run_some full d hs_init (proj2 N)) as [evs Ev].
  exists d, (html_bytes evs). split; [exact E|]. unfold render_html, render_html_events. rewrite Ev. reflexivity.
Qed.

(* render_markdown renders the same document as render_html (OptionParser::render_markdown = collect_html(..)
   .render_markdown(true)); its only panic site is the `todo!()` of Block::Meta, which that document never holds *)
Theorem render_markdown_returns env app o full : odok o ->
  exists d md, collect_html env app (ometa_of o) (oinfo_of o) = Some d /\ render_markdown full d = Some md.
Proof.
  intros Ho. destruct (odok_ok o Ho) as [Hm Hi].
  destruct (collect_html_cneutral no_meta user_no_meta env app _ _ Hm Hi) as (d & E & N).
  apply cneutral_spec in N. destruct (md_run_some full d ms_init (proj2 N)) as [st Ev].
  exists d, (rev (ms_out st)). split; [exact E|]. unfold render_markdown. rewrite Ev. reflexivity.
Qed.

Theorem render_manpage_returns env app o : odok o ->
  exists d man, manpage_doc env app (ometa_of o) (oinfo_of o) = Some d /\ render_roff (manpage_th app) d = Some man.
Proof.
  intros Ho. destruct (odok_ok o Ho) as [Hm Hi].
  destruct (manpage_doc_cneutral no_termref user_no_termref env app _ _ eq_refl Hm Hi) as (d & E & N).
  apply cneutral_spec in N. destruct (roff_frags_some d rs_init (proj2 N)) as [fs Ef].
  eexists d, _. split; [exact E|]. unfold render_roff, render_roff_frags. rewrite Ef. reflexivity.
Qed.
