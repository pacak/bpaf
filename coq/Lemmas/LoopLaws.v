(* LoopLaws.v -- termination of the repetition loops (C04).
   `many` / `some` / `collect` / `count` / `last` re-run their inner parser for as long as it
   consumes something; the model gives these loops explicit fuel `S (S (length items))` and an
   explicit out-of-fuel outcome.  The loop itself never exhausts that fuel: a repetition ends in a panic
   or out of fuel only with the outcome of a run of its inner parser, for EVERY inner parser and every state.
   Why: the consumed-something rule of parse_option makes `len` strictly decrease after the first round,
   and `remaining <= length items` holds of the initial state and is kept by each ledger step of Reach.v. *)
From BpafLemmas Require Import Tac Reach Ledger NoLoss.
Import ListNotations.

Definition bounded (s : state) : Prop :=
  length (ist s) = length (items s) /\ remaining s <= length (items s).

Lemma bounded_lenwf s : bounded s -> lenwf s.
Proof. intros [H _]. exact H. Qed.

Lemma count_present_le l a b : count_present l a b <= length l.
Proof.
  unfold count_present.
  etransitivity; [apply filter_len_le|]. rewrite firstn_length, skipn_length. lia.
Qed.

Lemma step_bounded K s s' : step K s s' -> bounded s -> bounded s' /\ items s' = items s.
Proof.
  intros St [Hl Hr]. destruct St as [k ix s st HK Hin Hat Hp Hacc|s c|s p|s a b s' Hs|s ist' Hlen Hpres].
  - rewrite (sremove_eff k ix s st Hin Hat Hp). unfold bounded. cbn. rewrite update_nth_length.
    split; [split; [exact Hl|lia]|reflexivity].
  - repeat split; auto.
  - repeat split; auto.
  - unfold set_scope in Hs. destruct (Nat.leb a b && Nat.leb b (length (ist s))); [|discriminate].
    inv Hs. unfold bounded. cbn. rewrite <- Hl at 2. auto using count_present_le.
  - unfold bounded. cbn. rewrite Hlen. auto.
Qed.

Lemma reach_bounded K s s' : reach K s s' -> bounded s -> bounded s' /\ items s' = items s.
Proof.
  intros R Hb. apply (reach_inv K (fun x => bounded x /\ items x = items s) ) with (s := s); auto.
  intros x y St [Bx Ix]. destruct (step_bounded K x y St Bx) as [By Iy]. split; [exact By|congruence].
Qed.

Definition keeps (ev : state -> eres * state) : Prop :=
  forall s, bounded s -> bounded (snd (ev s)) /\ items (snd (ev s)) = items s.

Theorem eval_keeps env p : keeps (eval env p).
Proof. intros s Hb. exact (reach_bounded _ s _ (eval_reach_any env p s) Hb). Qed.

Section Loops.
Variable ev : evaluator.
Variable P : state -> Prop.
Hypothesis P_bound : forall s, P s -> remaining s <= length (items s).
Hypothesis P_keeps : forall s, P s -> P (snd (ev s)) /\ items (snd (ev s)) = items s.
Variable its : list arg.

Definition good (s : state) : Prop := P s /\ items s = its.

Lemma good_next s : good s -> good (snd (ev s)).
Proof. intros [Hp Hi]. destruct (P_keeps s Hp) as [Hp' Hi']. split; [exact Hp'|congruence]. Qed.

(* `len` is the `remaining` the last round that yielded a value left (None before the first); the next value
   is taken only below it *)
Definition measure (len : option nat) : nat :=
  match len with None => S (S (length its)) | Some n => S n end.

Lemma parse_option_some len s catch v len' s' :
  good s -> parse_option ev len s catch = (OSome v, len', s') -> good s' /\ measure len' < measure len.
Proof.
  intros Hg E. pose proof (parse_option_cases ev len s catch) as C. rewrite E in C. destruct C as (Ev & L & ->).
  pose proof (good_next s Hg) as Hn. rewrite Ev in Hn. split; [exact Hn|].
  destruct Hn as [Hp Hi]. apply P_bound in Hp. rewrite Hi in Hp.
  destruct len as [m|]; cbn in *; [apply Nat.ltb_lt in L|]; lia.
Qed.

Lemma parse_option_good len s catch : good s -> good (snd (parse_option ev len s catch)).
Proof. intros Hg. destruct (parse_option_state ev len s catch) as [-> | ->]; auto using good_next. Qed.

Lemma many_loop_halts catch fuel : forall len s acc,
  good s -> measure len <= fuel -> halts (fst (fst (many_loop ev catch fuel len s acc))) = true ->
  exists s', good s' /\ fst (ev s') = fst (fst (many_loop ev catch fuel len s acc)).
Proof.
  induction fuel as [|f IH]; intros len s acc Hg Hm; [destruct len; cbn in Hm; lia|].
  cbn [many_loop]. pose proof (parse_option_cases ev len s catch) as C.
  destruct (parse_option ev len s catch) as [[o len'] s'] eqn:E.
  destruct o; cbn [fst halts]; try discriminate; intros H.
  - destruct (parse_option_some _ _ _ _ _ _ Hg E) as [Hg' Hlt]. apply IH; [exact Hg'|lia|exact H].
  - exists s. destruct C as [_ ->]. auto.
  - exists s. destruct C as [_ ->]. auto.
Qed.

Lemma count_loop_halts fuel : forall len s cur k last,
  good s -> measure len <= fuel -> halts (fst (fst (fst (count_loop ev fuel len s cur k last)))) = true ->
  exists s', good s' /\ fst (ev s') = fst (fst (fst (count_loop ev fuel len s cur k last))).
Proof.
  induction fuel as [|f IH]; intros len s cur k last Hg Hm; [destruct len; cbn in Hm; lia|].
  cbn [count_loop]. pose proof (parse_option_cases ev len s false) as C.
  destruct (parse_option ev len s false) as [[o len'] s'] eqn:E.
  destruct o; cbn [fst halts]; try discriminate.
  - destruct (parse_option_some _ _ _ _ _ _ Hg E) as [Hg' Hlt].
    destruct (Nat.eqb cur (remaining s')); [discriminate|]. apply IH; [exact Hg'|lia].
  - intros _. exists s. destruct C as [_ ->]. auto.
  - intros _. exists s. destruct C as [_ ->]. auto.
Qed.

Lemma count_loop_good fuel : forall len s cur k last, good s -> good (snd (count_loop ev fuel len s cur k last)).
Proof.
  induction fuel as [|f IH]; intros len s cur k last Hg; cbn [count_loop]; [exact Hg|].
  pose proof (parse_option_good len s false Hg) as Hn.
  destruct (parse_option ev len s false) as [[o len'] s']. cbn [snd] in Hn.
  destruct o; try exact Hn. destruct (Nat.eqb cur (remaining s')); [exact Hn|]. apply IH, Hn.
Qed.

Lemma measure_fuel s : good s -> measure None <= loop_fuel s.
Proof. intros [_ H]. unfold measure, loop_fuel. rewrite H. apply le_n. Qed.

Theorem many_body_halts catch s :
  good s -> halts (fst (many_body ev catch s)) = true ->
  exists s', good s' /\ fst (ev s') = fst (many_body ev catch s).
Proof.
  intros Hg. pose proof (many_loop_halts catch (loop_fuel s) None s [] Hg (measure_fuel s Hg)) as L.
  unfold many_body. destruct (many_loop ev catch (loop_fuel s) None s []) as [[r acc] s1].
  destruct r; try exact L; discriminate.
Qed.

Theorem some_body_halts msg catch s :
  good s -> halts (fst (some_body ev msg catch s)) = true ->
  exists s', good s' /\ fst (ev s') = fst (some_body ev msg catch s).
Proof.
  intros Hg. pose proof (many_loop_halts catch (loop_fuel s) None s [] Hg (measure_fuel s Hg)) as L.
  unfold some_body. destruct (many_loop ev catch (loop_fuel s) None s []) as [[r acc] s1].
  destruct r; try exact L; destruct acc; discriminate.
Qed.

Theorem count_body_halts s :
  good s -> halts (fst (count_body ev s)) = true -> exists s', good s' /\ fst (ev s') = fst (count_body ev s).
Proof.
  intros Hg. pose proof (count_loop_halts (loop_fuel s) None s (remaining s) 0 None Hg (measure_fuel s Hg)) as L.
  unfold count_body. destruct (count_loop ev (loop_fuel s) None s (remaining s) 0 None) as [[[r k] l] s1].
  destruct r; try exact L; discriminate.
Qed.

Theorem last_body_halts s :
  good s -> halts (fst (last_body ev s)) = true -> exists s', good s' /\ fst (ev s') = fst (last_body ev s).
Proof.
  intros Hg. pose proof (count_loop_halts (loop_fuel s) None s (remaining s) 0 None Hg (measure_fuel s Hg)) as L.
  pose proof (count_loop_good (loop_fuel s) None s (remaining s) 0 None Hg) as Hn.
  unfold last_body. destruct (count_loop ev (loop_fuel s) None s (remaining s) 0 None) as [[[r k] l] s1].
  destruct r; try exact L. destruct l; [discriminate|].
  (* no value kept: `last` runs the inner parser once more, from the state the loop left *)
  eauto.
Qed.
End Loops.

Lemma bounded_remaining s : bounded s -> remaining s <= length (items s).
Proof. intros [_ H]. exact H. Qed.

Lemma fuel_of_halts (ev : evaluator) (P : state -> Prop) r :
  (halts r = true -> exists s', P s' /\ fst (ev s') = r) -> r = RFuel -> exists s', fst (ev s') = RFuel.
Proof. intros H ->. destruct (H eq_refl) as (s' & _ & E). eauto. Qed.

Theorem many_body_fuel ev catch s :
  keeps ev -> bounded s -> fst (many_body ev catch s) = RFuel -> exists s', fst (ev s') = RFuel.
Proof.
  intros Hk Hb. apply (fuel_of_halts ev (good bounded (items s))).
  apply (many_body_halts ev bounded bounded_remaining Hk (items s) catch s (conj Hb eq_refl)).
Qed.

Theorem some_body_fuel ev msg catch s :
  keeps ev -> bounded s -> fst (some_body ev msg catch s) = RFuel -> exists s', fst (ev s') = RFuel.
Proof.
  intros Hk Hb. apply (fuel_of_halts ev (good bounded (items s))).
  apply (some_body_halts ev bounded bounded_remaining Hk (items s) msg catch s (conj Hb eq_refl)).
Qed.

Theorem count_body_fuel ev s :
  keeps ev -> bounded s -> fst (count_body ev s) = RFuel -> exists s', fst (ev s') = RFuel.
Proof.
  intros Hk Hb. apply (fuel_of_halts ev (good bounded (items s))).
  apply (count_body_halts ev bounded bounded_remaining Hk (items s) s (conj Hb eq_refl)).
Qed.

Theorem last_body_fuel ev s :
  keeps ev -> bounded s -> fst (last_body ev s) = RFuel -> exists s', fst (ev s') = RFuel.
Proof.
  intros Hk Hb. apply (fuel_of_halts ev (good bounded (items s))).
  apply (last_body_halts ev bounded bounded_remaining Hk (items s) s (conj Hb eq_refl)).
Qed.

Lemma construct_bounded sf sa name argv : bounded (fst (construct sf sa name argv)).
Proof.
  unfold construct. destruct (t_marker (tokenize sf sa argv)) as [ix|]; cbn; split; cbn;
    rewrite ?update_nth_length, ?repeat_length; lia.
Qed.
