(* AdjTotal.v -- C04 for adjacent groups: the retry loop of ParseAdjacent::eval terminates within the
   fuel the model gives it and none of its panic sites (scope arithmetic, `before - remaining`) is
   reached, for every group whose member parser keeps its scope and consumes only inside it
   (what Wf.memb accepts: everything but subcommands, nested groups included) and is itself total.
   The argument: every retry runs the member parser on the ORIGINAL ledger with a new right end; after
   the first retry the item at the right end is available and outside the scope, so the next end is at
   most the current one -- equal ends stop the loop, smaller ones shrink it.
   A group is itself such a member.  The window arithmetic of adjacent commands is covered the same way. *)
From BpafModel Require Import Wf.
From BpafLemmas Require Import Tac Find Reach Ledger AdjLaws Exact TotalLaws.
Import ListNotations.

Lemma available_run s start : start <= length (ist s) ->
  exists b, adjacently_available_from s start = (start, b) /\ start <= b <= length (ist s) /\
            forall i, start <= i < b -> pres (ist s) i = true.
Proof.
  intros H. eexists. split; [reflexivity|].
  pose proof (take_while_length_le present (skipn start (ist s))) as Hl. rewrite skipn_length in Hl. split; [lia|].
  intros i Hi. apply live_pres. apply (proj2 (adjacently_available_live s start)). exact Hi.
Qed.

Lemma both_present_from_found ix this orig off :
  both_present_from ix this orig = Some off ->
  exists x y, nth_error this (off - ix) = Some x /\ nth_error orig (off - ix) = Some y /\ present x && present y = true.
Proof.
  revert ix orig. induction this as [|a this IH]; intros ix [|b orig] H; cbn in H; try discriminate.
  destruct (present a && present b) eqn:Hc.
  - inv H. rewrite Nat.sub_diag. exists a, b. auto.
  - pose proof (both_present_from_spec _ _ _ _ H) as [Hle _]. apply IH in H.
    replace (off - ix) with (S (off - S ix)) by lia. exact H.
Qed.

(* the test of both_present_from, on whole ledgers instead of suffixes *)
Definition both_pres (a b : list istate) (i : nat) : bool := pres a i && pres b i.

Lemma both_pres_skipn a b start i : start <= i ->
  both_pres a b i = match nth_error (skipn start a) (i - start), nth_error (skipn start b) (i - start) with
                    | Some x, Some y => present x && present y
                    | _, _ => false
                    end.
Proof.
  intros Hi. rewrite !nth_error_skipn. replace (start + (i - start)) with i by lia. unfold both_pres, pres.
  destruct (nth_error a i), (nth_error b i); auto using andb_false_r.
Qed.

Lemma bpf_at a b start :
  match both_present_from start (skipn start a) (skipn start b) with
  | Some off => start <= off /\ both_pres a b off = true /\ forall i, start <= i < off -> both_pres a b i = false
  | None => forall i, start <= i -> both_pres a b i = false
  end.
Proof.
  pose proof (both_present_from_spec start (skipn start a) (skipn start b) _ eq_refl) as S.
  assert (F : forall i, start <= i ->
            (forall x y, nth_error (skipn start a) (i - start) = Some x -> nth_error (skipn start b) (i - start) = Some y ->
                         present x && present y = false) -> both_pres a b i = false).
  { intros i Hi H. rewrite (both_pres_skipn a b start i Hi).
    destruct (nth_error (skipn start a) (i - start)) as [x|]; [|reflexivity].
    destruct (nth_error (skipn start b) (i - start)) as [y|]; [|reflexivity]. exact (H x y eq_refl eq_refl). }
  destruct (both_present_from start (skipn start a) (skipn start b)) as [off|] eqn:E.
  - destruct S as [Hle Hb]. split; [exact Hle|]. split.
    + destruct (both_present_from_found _ _ _ _ E) as (x & y & Hx & Hy & Hp).
      rewrite (both_pres_skipn a b start off Hle), Hx, Hy. exact Hp.
    + intros i Hi. apply F; [lia|]. apply Hb. lia.
  - intros i Hi. apply F; [exact Hi|]. apply S.
Qed.

(* State::adjacent_scope: the next window ends at the first item from the scope's start that both ledgers show *)
Lemma adjacent_scope_cases ta orig :
  match adjacent_scope ta orig with
  | ASPanic => length (ist ta) < sc_start ta \/ length (ist orig) < sc_start ta
  | ASSome a off =>
    a = sc_start ta /\ a <= off /\ off <> sc_end ta /\ both_pres (ist ta) (ist orig) off = true /\
    forall i, a <= i < off -> both_pres (ist ta) (ist orig) i = false
  | ASNone => True
  end.
Proof.
  unfold adjacent_scope. destruct (is_nil (items ta)); [exact I|].
  destruct (Nat.ltb (length (ist ta)) (sc_start ta)) eqn:E1; [left; apply Nat.ltb_lt, E1|].
  destruct (Nat.ltb (length (ist orig)) (sc_start ta)) eqn:E2; [right; apply Nat.ltb_lt, E2|]. cbn [orb].
  pose proof (bpf_at (ist ta) (ist orig) (sc_start ta)) as B.
  destruct (both_present_from _ _ _) as [off|]; [|exact I]. rewrite Nat.eqb_refl. cbn [andb].
  destruct (Nat.eqb_spec (sc_end ta) off) as [|Hne]; [exact I|]. destruct B as (B1 & B2 & B3). auto 6.
Qed.

Definition nostop (st : adj_step) : Prop := match st with AStop _ _ => False | _ => True end.

Section Adj.
Variable ev : evaluator.
Hypothesis Hin : ev_inscope ev.
Hypothesis Hre : ev_reach (fun _ => True) ev.
Hypothesis Htot : total ev.

Lemma ev_facts s : G s ->
  let s' := snd (ev s) in
  G s' /\ sc_start s' = sc_start s /\ sc_end s' = sc_end s /\ length (ist s') = length (ist s) /\
  items s' = items s /\
  (forall i, pres (ist s') i = true -> pres (ist s) i = true) /\
  (forall i, in_scope s i = false -> pres (ist s') i = pres (ist s) i) /\
  nf (fst (ev s)).
Proof.
  intros Hg s'. destruct (ev_reach_keepsG _ ev Hre s Hg) as [G' I']. destruct (Hin s) as ((S1 & S2) & _ & L & C).
  fold s' in G', I', S1, S2, L, C.
  assert (M : forall i, pres (ist s') i = true -> pres (ist s) i = true).
  { intros i H. apply live_pres. apply (reach_mono (fun _ => True) s s' i (Hre s)). apply live_pres. exact H. }
  split; [exact G'|]. split; [exact S1|]. split; [exact S2|]. split; [exact L|]. split; [exact I'|].
  split; [exact M|]. split.
  - intros i Hi. destruct (pres (ist s') i) eqn:E1; [symmetry; apply M, E1|].
    destruct (pres (ist s) i) eqn:E2; [|reflexivity].
    assert (X : in_scope s i = true).
    { apply C; [apply live_pres, E2|]. intros Hl. apply live_pres in Hl. congruence. }
    congruence.
  - apply Htot. exact Hg.
Qed.

Section Loop.
Variable orig : state.
Variable start before : nat.
Hypothesis Go : G orig.

Record LI (ta : state) : Prop := mkLI {
  li_ist : ist ta = ist orig;
  li_items : items ta = items orig;
  li_start : sc_start ta = start;
  li_G : G ta;
  li_cnt : cnt (pres (ist orig)) start (sc_end ta - start) <= before }.

Lemma LI_of_scope b ta : set_scope orig start b = Some ta ->
  cnt (pres (ist orig)) start (b - start) <= before -> LI ta.
Proof.
  intros H Hc. pose proof (set_scope_G orig start b ta (G_lenwf _ Go) H) as Gt.
  apply set_scope_fields in H. destruct H as (Hi & Ht & _ & _ & _ & Ha & Hb & _).
  constructor; auto. rewrite Hb. exact Hc.
Qed.

(* one iteration: either it ends (value or error), or it retries on a state that satisfies the loop
   invariant again, whose right end `off` holds an available item and is not the current end *)
Lemma iteration f ta best : LI ta ->
  (nostop (adj_inner ev orig before (S f) ta best) /\
   match adj_inner ev orig before (S f) ta best with AStop _ _ => False | _ => True end) \/
  exists off ta', off <> sc_end ta /\ start <= off /\ pres (ist orig) off = true /\
    (pres (ist orig) (sc_end ta) = true -> off <= sc_end ta) /\
    set_scope orig start off = Some ta' /\ LI ta' /\
    adj_inner ev orig before (S f) ta best = adj_inner ev orig before f ta' best.
Proof.
  intros [Hi Hit Hs Hg Hc]. rewrite adj_inner_S.
  destruct (ev_facts ta Hg) as (Gt & S1 & S2 & L & It & M & O & N).
  destruct (ev ta) as [r t1] eqn:Ev. cbn [fst snd] in *.
  assert (Hse : start <= sc_end ta) by (destruct Hg as (_ & [X _] & _); rewrite <- Hs; exact X).
  destruct r as [res|err|w|]; try contradiction.
  - (* a value: the loop ends unless an item both ledgers show lies beyond this window *)
    assert (Hret : exists fin, set_scope t1 (sc_start orig) (sc_end orig) = Some fin).
    { destruct Go as (_ & [Ho1 Ho2] & _). apply set_scope_some; [exact Ho1|]. rewrite L, Hi. exact Ho2. }
    pose proof (adjacent_scope_cases t1 orig) as A. rewrite S1, S2, L, Hs, <- Hi in A.
    destruct (adjacent_scope t1 orig) as [| |a off].
    + exfalso. destruct Hg as (_ & [_ X] & _). lia.
    + destruct Hret as [fin ->]. left. split; exact I.
    + right. destruct A as (-> & B1 & Eo & B2 & B3).
      assert (Po : pres (ist orig) off = true) by (apply andb_prop in B2; rewrite <- Hi; apply B2).
      destruct (set_scope_some orig start off B1 (Nat.lt_le_incl _ _ (pres_lt _ _ Po))) as [ta' Et].
      (* outside the scope of ta the two ledgers agree, so `both present` is `present in orig` there *)
      assert (Out : forall i, sc_end ta <= i -> both_pres (ist t1) (ist ta) i = pres (ist orig) i).
      { intros i Hi'. unfold both_pres. rewrite O, Hi; [apply andb_diag|].
        destruct (in_scope ta i) eqn:X; [apply in_scope_iff in X; lia|reflexivity]. }
      exists off, ta'. split; [exact Eo|]. split; [exact B1|]. split; [exact Po|]. split; [|split; [exact Et|split]].
      * intros Pe. destruct (Nat.le_gt_cases off (sc_end ta)) as [Hle|Hgt]; [exact Hle|].
        rewrite <- Out, B3 in Pe by lia. discriminate.
      * apply (LI_of_scope off ta' Et). etransitivity; [apply (cnt_stretch _ _ (sc_end ta - start))|exact Hc].
        intros i Hi'. rewrite <- Out by lia. apply B3. lia.
      * rewrite Et. reflexivity.
  - (* an error: `before - remaining` does not underflow *)
    left.
    assert (Hr : remaining t1 <= before).
    { destruct Gt as (_ & _ & Ex). unfold exact in Ex. rewrite Ex, count_present_cnt, S1, S2, Hs.
      etransitivity; [|exact Hc]. rewrite <- Hi. apply cnt_le. intros i _. apply M. }
    apply Nat.ltb_ge in Hr. rewrite Hr. cbn. destruct (Nat.ltb (b_consumed best) (before - remaining t1)); split; exact I.
Qed.

Lemma shrinking : forall f ta best, LI ta -> pres (ist orig) (sc_end ta) = true ->
  sc_end ta - start < f -> nostop (adj_inner ev orig before f ta best).
Proof.
  induction f as [|f IH]; intros ta best Hli Pe Hf; [lia|].
  destruct (iteration f ta best Hli) as [[H _]|(off & ta' & Hne & Hso & Po & Hle & Et & Hli' & Eq)]; [exact H|].
  rewrite Eq. specialize (Hle Pe).
  assert (Se : sc_end ta' = off) by (apply set_scope_fields in Et; apply Et).
  apply IH; [exact Hli'|rewrite Se; exact Po|rewrite Se; lia].
Qed.

Lemma loop_total ta best : LI ta -> nostop (adj_inner ev orig before (loop_fuel orig) ta best).
Proof.
  intros Hli. unfold loop_fuel.
  destruct (iteration (S (length (items orig))) ta best Hli) as [[H _]|(off & ta' & Hne & Hso & Po & Hle & Et & Hli' & Eq)];
    [exact H|].
  rewrite Eq.
  assert (Se : sc_end ta' = off) by (apply set_scope_fields in Et; apply Et).
  apply shrinking; [exact Hli'|rewrite Se; exact Po|].
  rewrite Se. apply pres_lt in Po. destruct Go as ((Hl & _) & _). rewrite Hl in Po. lia.
Qed.
End Loop.

Lemma adj_open_ok orig width start :
  G orig -> start <= sc_end orig -> start + width <= length (items orig) ->
  match adj_open orig width start with
  | WPanic => False
  | WEmpty => True
  | WProbe scratch rest => G scratch /\ exists before ta, rest = Some (before, ta) /\ LI orig start before ta
  end.
Proof.
  intros Go Hse Hsw. pose proof Go as ((Hl & _) & (_ & Ho2) & _). unfold adj_open.
  destruct (set_scope_some orig start (length (items orig))) as [ta0 E0]; [lia|rewrite Hl; lia|]. rewrite E0.
  rewrite !(set_scope_twice _ _ _ _ _ _ E0).
  destruct (set_scope_some orig start (start + width)) as [scratch Es]; [lia|rewrite Hl; lia|]. rewrite Es.
  destruct (Nat.eqb (remaining scratch) 0); [exact I|]. split; [exact (set_scope_G _ _ _ _ (G_lenwf _ Go) Es)|].
  destruct (set_scope_some orig start (sc_end orig)) as [ta1 E1]; [exact Hse|exact Ho2|]. rewrite E1.
  pose proof (set_scope_remaining _ _ _ _ E1) as R1.
  assert (T1 : ist ta1 = ist orig) by (apply set_scope_fields in E1; apply E1).
  destruct (Nat.ltb (remaining ta1) (sc_end orig - start)) eqn:Hlt.
  - (* something up to the caller's end is taken: the window ends where the run of available items does *)
    destruct (available_run ta1 start) as (b & -> & Hb & Hp); [rewrite T1; lia|].
    rewrite (set_scope_twice _ _ _ _ _ _ E1), T1 in *.
    destruct (set_scope_some orig start b) as [ta2 E2]; [lia|lia|]. rewrite E2.
    exists (remaining ta1), ta2. split; [reflexivity|]. apply (LI_of_scope orig start _ Go b ta2 E2). rewrite R1.
    apply Nat.ltb_lt in Hlt. rewrite R1 in Hlt.
    destruct (Nat.le_gt_cases (b - start) (sc_end orig - start)) as [Hle|Hgt]; [apply cnt_mono_right, Hle|].
    exfalso. rewrite cnt_all in Hlt; [lia|]. intros i Hi. apply Hp. lia.
  - exists (remaining ta1), ta1. split; [reflexivity|]. apply (LI_of_scope orig start _ Go _ ta1 E1). rewrite R1. reflexivity.
Qed.

Lemma adj_try_total orig width start best :
  G orig -> start <= sc_end orig -> start + width <= length (items orig) ->
  nostop (adj_try ev orig width start best).
Proof.
  intros Go Hse Hsw. rewrite adj_try_eq. pose proof (adj_open_ok orig width start Go Hse Hsw) as O.
  destruct (adj_open orig width start) as [| |scratch rest]; [contradiction|exact I|].
  destruct O as (Gs & before & ta & -> & Hli). pose proof (Htot scratch Gs) as N. apply nf_halts in N.
  destruct (ev scratch) as [r0 scratch']. cbn [fst] in N. rewrite N.
  destruct (Nat.eqb _ _); [exact I|]. apply loop_total with (start := start); assumption.
Qed.

Lemma adj_starts_ok s width start : In start (adj_starts s width) ->
  start <= sc_end s /\ start + width <= length (items s).
Proof.
  unfold adj_starts. rewrite filter_In, in_seq. intros [Hr Hc].
  destruct (present_at s start) as [[|]|]; try discriminate. apply Nat.leb_le in Hc. lia.
Qed.

Lemma adj_outer_total orig width : G orig -> forall starts best,
  (forall st, In st starts -> st <= sc_end orig /\ st + width <= length (items orig)) ->
  reach (fun _ => True) orig (b_args best) ->
  nf (fst (adj_outer ev orig width starts best)).
Proof.
  intros Go. induction starts as [|st more IH]; intros best Hs Rb; cbn [adj_outer].
  - (* the caller's scope fits the best attempt's ledger: it has the length of the caller's *)
    destruct (reach_G _ _ _ Rb Go) as [[[Lb _] _] Ib]. destruct Go as [[Lo _] [[S1 S2] _]].
    destruct (set_scope_some (b_args best) (sc_start orig) (sc_end orig)) as [fin E]; [exact S1|congruence|].
    rewrite E. exact I.
  - destruct (Hs st (or_introl eq_refl)) as [H1 H2].
    pose proof (adj_try_total orig width st best Go H1 H2) as N.
    pose proof (adj_try_cases ev orig width st best) as C.
    destruct (adj_try ev orig width st best) as [v s|best'|r s]; [exact I| |contradiction].
    apply IH; [intros st' Hi; apply Hs; right; exact Hi|]. destruct C as [->|(ta & W & E)]; [exact Rb|].
    eapply reach_trans; [apply (window_rel _ (reach_scope _)); exact W|].
    pose proof (Hre ta) as R. rewrite E in R. exact R.
Qed.

Theorem adjacent_total fi : fi <> None -> total (eval_adjacent ev fi).
Proof.
  intros Hf s Hg. unfold eval_adjacent. destruct fi as [it|]; [|congruence].
  apply adj_outer_total; [exact Hg| |apply reach_refl]. intros st Hi. apply (adj_starts_ok s _ st Hi).
Qed.
End Adj.

(* Whatever a group's member parser does inside the windows the group opens, the group as a whole keeps its caller's
   scope, the item list and the length of the ledger, and consumes only inside the caller's scope -- on success, on
   failure (adj_outer puts the caller's scope back on the state of the best attempt) and on the never-taken panic
   exits (they hand back the caller's state).  So a group can be a member of another group. *)
Section AdjInscope.
Variable ev : evaluator.
Hypothesis Hin : ev_inscope ev.
Hypothesis Hre : ev_reach (fun _ => True) ev.

Section Orig.
Variable orig : state.

Record W (ta : state) : Prop := mkW {
  w_items : items ta = items orig;
  w_len : length (ist ta) = length (ist orig);
  w_diff : forall i, live orig i -> ~ live ta i -> in_scope orig i = true;
  w_in : forall i, in_scope ta i = true -> live ta i -> in_scope orig i = true }.

Lemma W_set_scope a b ta : set_scope orig a b = Some ta ->
  (forall i, a <= i < b -> live orig i -> in_scope orig i = true) -> W ta.
Proof.
  intros E Hw. apply set_scope_fields in E. destruct E as (Hi & Ht & _ & _ & _ & Ha & Hb & _).
  assert (L : forall i, live ta i <-> live orig i) by (intros i; unfold live, present_at, ist_at; rewrite Ht; tauto).
  split; [exact Hi|rewrite Ht; reflexivity| |].
  - intros i Ho Hn. exfalso. apply Hn. apply L. exact Ho.
  - intros i Hs Hl. apply in_scope_iff in Hs. rewrite Ha, Hb in Hs. apply Hw; [exact Hs|apply L; exact Hl].
Qed.

Lemma W_ev ta : W ta -> W (snd (ev ta)).
Proof.
  intros [Wi Wl Wd Wn]. destruct (Hin ta) as ((S1 & S2) & I1 & L1 & C1).
  pose proof (fun i => reach_mono (fun _ => True) ta (snd (ev ta)) i (Hre ta)) as M.
  split; [congruence|congruence| |].
  - intros i Ho Hn. destruct (live_dec ta i) as [Hl|Hl]; [|apply Wd; assumption].
    apply Wn; [apply C1; assumption|exact Hl].
  - intros i Hs Hl. apply Wn; [|apply M; exact Hl]. unfold in_scope in *. rewrite S1, S2 in Hs. exact Hs.
Qed.

Lemma W_final ta fin : W ta -> set_scope ta (sc_start orig) (sc_end orig) = Some fin -> inrel orig fin.
Proof.
  intros [Wi Wl Wd Wn] E. apply set_scope_fields in E. destruct E as (Hi & Ht & _ & _ & _ & Ha & Hb & _).
  assert (L : forall i, live fin i <-> live ta i) by (intros i; unfold live, present_at, ist_at; rewrite Ht; tauto).
  split; [split; assumption|]. split; [congruence|]. split; [congruence|].
  intros i Ho Hn. apply Wd; [exact Ho|]. intros Hl. apply Hn. apply L. exact Hl.
Qed.

Definition stepW (st : adj_step) : Prop :=
  match st with AReturn _ fin => inrel orig fin | ANext b => W (b_args b) | AStop _ _ => True end.

Lemma adj_inner_W before : forall fuel ta best, W ta -> W (b_args best) -> stepW (adj_inner ev orig before fuel ta best).
Proof.
  induction fuel as [|f IH]; intros ta best Wt Wb; [exact I|].
  rewrite adj_inner_S. pose proof (W_ev ta Wt) as W1.
  destruct (ev ta) as [r t1]. cbn [snd] in W1. destruct r; try exact I.
  - pose proof (adjacent_scope_cases t1 orig) as A. destruct (adjacent_scope t1 orig) as [| |a b]; try exact I.
    + destruct (set_scope t1 (sc_start orig) (sc_end orig)) as [fin|] eqn:E; [|exact I]. eapply W_final; eauto.
    + destruct (set_scope orig a b) as [ta'|] eqn:E; [|exact I].
      apply IH; [|exact Wb]. apply (W_set_scope a b ta' E).
      (* up to the first item both ledgers show, what the caller still has was consumed by this attempt: inside the scope *)
      intros i Hi Ho. destruct A as (_ & _ & _ & _ & B3). specialize (B3 i Hi). unfold both_pres in B3.
      apply live_pres in Ho. rewrite Ho, andb_true_r in B3.
      apply (w_diff t1 W1 i); [apply live_pres; exact Ho|]. intros Hl. apply live_pres in Hl. congruence.
  - destruct (Nat.ltb before (remaining t1)); [exact I|]. cbv zeta.
    destruct (Nat.ltb (b_consumed best) (before - remaining t1)); [exact W1|exact Wb].
Qed.

Lemma adj_try_W width start best : sc_start orig <= start -> W (b_args best) ->
  stepW (adj_try ev orig width start best).
Proof.
  intros H1 Wb. rewrite adj_try_eq.
  destruct (adj_open orig width start) as [| |scratch rest] eqn:O; [exact I|exact Wb|].
  apply adj_open_probe in O. destruct O as (_ & _ & O).
  destruct (ev scratch) as [r0 scratch']. destruct (halts r0); [exact I|].
  destruct (Nat.eqb _ _); [exact Wb|]. destruct rest as [[before ta]|]; [|exact I].
  destruct O as (ta1 & b & E1 & _ & E2 & Hb). apply adj_inner_W; [|exact Wb]. apply (W_set_scope start b ta E2).
  (* the window ends at the caller's end, or -- something up to there being taken -- with the run of available items *)
  assert (Hbe : b <= sc_end orig).
  { destruct Hb as [->|[Hlt ->]]; [reflexivity|]. rewrite (set_scope_remaining _ _ _ _ E1) in Hlt.
    destruct (Nat.le_gt_cases (snd (adjacently_available_from orig start)) (sc_end orig)) as [Hle|Hgt]; [exact Hle|exfalso].
    rewrite cnt_all in Hlt; [lia|]. intros i Hi. apply live_pres.
    apply (proj2 (adjacently_available_live orig start)). lia. }
  intros i Hi _. apply in_scope_iff. lia.
Qed.

Lemma W_refl : W orig.
Proof. split; auto. Qed.

Lemma adj_outer_inrel width : forall starts best,
  (forall st, In st starts -> sc_start orig <= st) -> W (b_args best) ->
  inrel orig (snd (adj_outer ev orig width starts best)).
Proof.
  induction starts as [|st more IH]; intros best Hs Wb; cbn [adj_outer].
  - destruct (set_scope (b_args best) (sc_start orig) (sc_end orig)) as [fin|] eqn:E; cbn [snd]; [|apply inrel_refl].
    eapply W_final; eauto.
  - pose proof (adj_try_W width st best (Hs st (or_introl eq_refl)) Wb) as N.
    destruct (adj_try ev orig width st best) as [v fin|b'|r sx]; cbn [snd stepW] in *; [exact N| |apply inrel_refl].
    apply IH; [intros x Hx; apply Hs; right; exact Hx|exact N].
Qed.
End Orig.

Theorem adjacent_inscope fi : ev_inscope (eval_adjacent ev fi).
Proof.
  intros s. unfold eval_adjacent. destruct fi as [it|]; [|apply inrel_refl].
  apply adj_outer_inrel; [|apply W_refl].
  intros st Hi. unfold adj_starts in Hi. apply filter_In in Hi. destruct Hi as [Hr _]. apply in_seq in Hr. lia.
Qed.
End AdjInscope.

Lemma memb_every :
  (forall p, memb p = true -> every (fun p => memb p = true) (fun _ => False) p) /\
  (forall ps, membl ps = true -> every_l (fun p => memb p = true) (fun _ => False) ps).
Proof.
  (* the combined scheme wants a statement about option levels too: no member has one *)
  cut ((forall p, memb p = true -> every (fun p => memb p = true) (fun _ => False) p) /\
       (forall ps, membl ps = true -> every_l (fun p => memb p = true) (fun _ => False) ps) /\
       (forall o : oparser, True)); [tauto|].
  apply parser_plist_oparser_ind; cbn [memb membl every every_l]; auto.
  - intros; discriminate.
  - intros a IHa b IHb H. destruct (andb_prop _ _ H). auto.
  - intros q IHq t IHt H. destruct (andb_prop _ _ H). auto.
Qed.

Section Members.
Variable env : bytes -> option bytes.

Lemma memb_inscope :
  (forall p, memb p = true -> ev_inscope (eval env p)) /\
  (forall ps, membl ps = true -> Forall ev_inscope (evals env ps)).
Proof.
  destruct memb_every as (Ep & El).
  destruct (eval_respects inrel inrel_rel env (fun p => memb p = true) (fun _ => False)) as (Hp & Hl & _).
  - intros n p a _. apply eval_flag_inscope.
  - intros n mv ty adj _. apply eval_arg_inscope.
  - intros mv ty pos help _. apply eval_pos_inscope.
  - intros mv help check anywhere _. apply eval_any_inscope.
  - intros name aliases shorts help adjacent sub H. discriminate H.
  - intros fields _ H. apply adjacent_inscope; [apply con_inscope, H|apply con_reach, evals_reach_any].
  - intros q inf [].
  - split; [intros p H; apply Hp, Ep, H|intros ps H; apply Hl, El, H].
Qed.

Lemma group_safe fields : okp (PAdj fields) = true -> Forall safe (evals env fields) ->
  safe (eval_adjacent (con_body true (evals env fields)) (first_item (con_meta fields))).
Proof.
  intros H Hs. cbn [okp] in H. apply andb_prop in H. destruct H as [H Hfi]. apply andb_prop in H. destruct H as [Hm _].
  pose proof (con_safe true _ Hs) as [R T]. split; [apply adjacent_reach, R|].
  apply adjacent_total; [apply con_inscope, (proj2 memb_inscope), Hm|exact R|exact T|].
  destruct (first_item (con_meta fields)); discriminate.
Qed.
End Members.

Lemma G_set_path s p : G s -> G (set_path s p).
Proof. intros H. exact H. Qed.

(* the window after the name, and the one retry on a narrower window, lie inside the ledger *)
Lemma cmd_adjacent_nf run s3 :
  keepsGr run -> totalr run -> G s3 -> sc_start s3 < sc_end s3 -> nf (fst (cmd_adjacent run s3)).
Proof.
  intros Hk Ht G3 Hlt. pose proof G3 as ((L3 & _) & [Sc1 Sc2] & _). unfold cmd_adjacent.
  assert (Hw : forall a b w, set_scope s3 a b = Some w ->
            nfs (fst (run w)) /\ G (snd (run w)) /\ length (ist (snd (run w))) = length (ist s3)).
  { intros a b w E. pose proof (set_scope_G s3 a b w (G_lenwf _ G3) E) as Gw. destruct (Hk w Gw) as [Gr Ir].
    split; [apply Ht, Gw|]. split; [exact Gr|]. apply set_scope_fields in E. destruct E as (Iw & _).
    destruct Gr as ((Lr & _) & _). congruence. }
  assert (Hback : forall t, length (ist t) = length (ist s3) -> exists t', set_scope t (sc_start s3) (sc_end s3) = Some t').
  { intros t Lt. apply set_scope_some; [exact Sc1|rewrite Lt; exact Sc2]. }
  destruct (available_run s3 (S (sc_start s3))) as (b & -> & Hb & _); [lia|].
  destruct (set_scope_some s3 (S (sc_start s3)) b) as [s4 E4]; [lia|lia|]. rewrite E4.
  destruct (Hw _ _ _ E4) as (N4 & G5 & L5). destruct (run s4) as [r5 s5]. cbn [fst snd] in *.
  destruct r5 as [v|f|w|]; try contradiction.
  - destruct (Hback s5 L5) as [s6 ->]. exact I.
  - pose proof (adjacent_scope_cases s5 s3) as A. destruct (adjacent_scope s5 s3) as [| |na nb]; [|exact I|].
    + exfalso. destruct G5 as (_ & [X1 X2] & _). lia.
    + destruct A as (-> & B1 & _ & B2 & _). apply andb_prop in B2. destruct B2 as [_ Po]. apply pres_lt in Po.
      destruct (set_scope_some s3 (sc_start s5) nb B1 (Nat.lt_le_incl _ _ Po)) as [o1 Eo]. rewrite Eo.
      destruct (Hw _ _ _ Eo) as (No & _ & Lo). destruct (run o1) as [r o2]. cbn [fst snd] in *.
      destruct r as [res|f2|w|]; try contradiction; try exact I. destruct (Hback o2 Lo) as [o3 ->]. exact I.
Qed.

Lemma cmd_adjacent_total name aliases shorts help m_sub i_sub run :
  keepsGr run -> totalr run -> total (cmd_body name aliases shorts help true m_sub i_sub run).
Proof. intros Hk Ht. apply cmd_total_with. intros s3. apply cmd_adjacent_nf; assumption. Qed.

Lemma cmd_safe name aliases shorts help adjacent m_sub i_sub run :
  safe_run run -> safe (cmd_body name aliases shorts help adjacent m_sub i_sub run).
Proof.
  intros [R T]. split; [apply cmd_reach; [intros w _; exact I|exact R]|].
  destruct adjacent; [apply cmd_adjacent_total; [exact (run_reach_keepsGr _ _ R)|exact T]|apply cmd_total, T].
Qed.
