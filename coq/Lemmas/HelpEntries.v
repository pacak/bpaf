(* HelpEntries.v -- C12: what the item lists of --help consist of.  Written onto a CLOSED document (one
   that does not end in a text chunk) an item is the document followed by its entry (`item_doc`).  Hence
   an item list is EXACTLY the concatenation, in order, of the entries of the items that survive the
   duplicate filter, and the filter drops an item only if an equal entry was written before. *)
From BpafModel Require Import Help.
From BpafLemmas Require Import HelpOrder.
Import ListNotations.

Lemma dwrite_closed d sty s : closed d -> dwrite d sty s = d ++ [TText sty s].
Proof. intros C. apply (prefix_alone (fun d => dwrite d sty s)). intros x. apply dwrite_pre, C. Qed.

Section Entries.
Variable env : bytes -> option bytes.

Definition item_doc (it : helpitem) (ie : bool) : doc := write_help_item env [] it ie.

Lemma write_help_item_closed d it ie : closed d -> write_help_item env d it ie = d ++ item_doc it ie.
Proof.
  intros C. apply (prefix_alone (fun d => write_help_item env d it ie)). intros x. apply write_help_item_pre, C.
Qed.

(* every entry ends in a block token: what follows it cannot merge into it *)
Lemma item_doc_closed d it ie : closed d -> closed (d ++ item_doc it ie).
Proof.
  intros C. rewrite <- write_help_item_closed by exact C.
  destruct it as [help ty|help ty|ty|metavar anywhere help|metavar help|name short help m i|name var help|name metavar var help|inner ty|ty]; cbn [write_help_item]; try apply closed_snoc_end; try apply closed_snoc_start.
  - destruct help; cbn [dbody]; apply closed_snoc_end.
  - destruct help; cbn [dbody]; apply closed_snoc_end.
  - destruct help; cbn [dbody]; apply closed_snoc_end.
  - destruct var; [unfold denv_line; apply closed_snoc_end|]. destruct help; cbn [dbody]; apply closed_snoc_end.
  - destruct var; [unfold denv_line; apply closed_snoc_end|]. destruct help; cbn [dbody]; apply closed_snoc_end.
Qed.

Fixpoint kept (items : list helpitem) (seen : list dkey) (keepf : bool) : list helpitem :=
  match items with
  | [] => []
  | it :: t =>
    let '(keep, seen', keepf') := dedup_check seen keepf it in
    if keep then it :: kept t seen' keepf' else kept t seen' keepf'
  end.

Lemma closed_flat d items ie : closed d -> closed (d ++ flat_map (fun it => item_doc it ie) items).
Proof.
  revert d. induction items as [|it t IH]; intros d C; cbn [flat_map]; [rewrite app_nil_r; exact C|].
  rewrite app_assoc. apply IH. apply item_doc_closed, C.
Qed.

(* C12: the written list is exactly the entries of the kept items, in order *)
Theorem write_deduped_entries items ie : forall d seen keepf, closed d ->
  write_deduped env d items seen keepf ie = d ++ flat_map (fun it => item_doc it ie) (kept items seen keepf).
Proof.
  induction items as [|it t IH]; intros d seen keepf C; cbn [write_deduped kept]; [rewrite app_nil_r; reflexivity|].
  destruct (dedup_check seen keepf it) as [[keep seen'] keepf']. destruct keep.
  - rewrite write_help_item_closed by exact C. rewrite IH by (apply item_doc_closed, C).
    cbn [flat_map]. rewrite app_assoc. reflexivity.
  - apply IH. exact C.
Qed.

Definition section_doc (items : list helpitem) (ty : hity) (name : bytes) (ie : bool) : doc :=
  match items_of_ty ty IBNo items with
  | [] => []
  | xs => [TStart BBlock; TStart BSection2; TText SEmphasis name; TEnd BSection2; TStart BDefinitionList]
          ++ flat_map (fun it => item_doc it ie) (kept xs [] false)
          ++ [TEnd BDefinitionList; TEnd BBlock]
  end.

Theorem help_section_entries d items ty name ie :
  write_help_items env d items ty name ie = d ++ section_doc items ty name ie.
Proof.
  unfold write_help_items, section_doc.
  destruct (items_of_ty ty IBNo items) as [|x xs] eqn:E; [rewrite app_nil_r; reflexivity|].
  set (d1 := dtok (dtok d (TStart BBlock)) (TStart BSection2)).
  assert (C1 : closed d1) by apply closed_snoc_start.
  rewrite (dwrite_closed d1 SEmphasis name C1).
  set (d2 := dtok (dtok (d1 ++ [TText SEmphasis name]) (TEnd BSection2)) (TStart BDefinitionList)).
  assert (C2 : closed d2) by apply closed_snoc_start.
  rewrite (write_deduped_entries (x :: xs) ie d2 [] false C2).
  subst d2 d1. unfold dtok. rewrite <- !app_assoc. reflexivity.
Qed.

(* C12: the item part of the help document *)
Theorem help_item_groups_parts d items ie d' :
  closed d -> write_help_item_groups env d items ie = Some d' ->
  exists grp rest,
    write_groups env (S (length items)) [] items ie = Some (grp, rest) /\
    d' = d ++ grp ++ section_doc rest HTPositional b_avail_pos ie ++ section_doc rest HTFlag b_avail_opt ie
           ++ section_doc rest HTCommand b_avail_cmd ie.
Proof.
  intros C E. unfold write_help_item_groups in E.
  pose proof (write_groups_pre d C env (S (length items)) [] items ie) as P. rewrite app_nil_r in P.
  destruct (write_groups env (S (length items)) [] items ie) as [[grp rest]|]; rewrite P in E; [|discriminate].
  cbn [option_map fst snd] in E, P. inversion E. exists grp, rest. split; [reflexivity|].
  rewrite !help_section_entries.
  rewrite <- !app_assoc. reflexivity.
Qed.
End Entries.

Definition key_of (it : helpitem) : option dkey :=
  match it with
  | HAny mv _ h => Some (DKAny mv h)
  | HPositional mv h => Some (DKPos mv h)
  | HCommand n _ h _ _ => Some (DKCmd n h)
  | HFlag n _ h => Some (DKFlag n h)
  | HArgument n mv _ h => Some (DKArg n mv h)
  | _ => None
  end.

(* Dedup::check, by the key of the item *)
Lemma dedup_check_key seen keepf it k : key_of it = Some k ->
  dedup_check seen keepf it = if existsb (dkey_eqb k) seen then (false, seen, false) else (true, k :: seen, true).
Proof. destruct it; cbn; intros H; inversion H; reflexivity. Qed.
Lemma dedup_check_nokey seen keepf it : key_of it = None -> snd (fst (dedup_check seen keepf it)) = seen.
Proof. destruct it; cbn; intros H; try discriminate H; reflexivity. Qed.

(* C12: an item is dropped only if its name, metavariable and help equal those of an entry already written in
   the same list *)
Theorem kept_or_duplicate : forall items seen keepf it k,
  In it items -> key_of it = Some k ->
  In it (kept items seen keepf) \/ existsb (dkey_eqb k) seen = true \/
  exists it' k', In it' (kept items seen keepf) /\ key_of it' = Some k' /\ dkey_eqb k k' = true.
Proof.
  induction items as [|x t IH]; intros seen keepf it k Hin Hk; [destruct Hin|].
  cbn [kept]. destruct Hin as [->|Hin].
  - rewrite (dedup_check_key seen keepf it k Hk). destruct (existsb (dkey_eqb k) seen); [right|left]; left; reflexivity.
  - destruct (key_of x) as [kx|] eqn:Kx.
    + rewrite (dedup_check_key seen keepf x kx Kx). destruct (existsb (dkey_eqb kx) seen).
      * apply IH; assumption.
      * (* x is kept and remembered: a later item with its key is a duplicate of x *)
        destruct (IH (kx :: seen) true it k Hin Hk) as [H|[H|(it' & k' & H1 & H2 & H3)]].
        -- left. right. exact H.
        -- cbn [existsb] in H. destruct (dkey_eqb k kx) eqn:E; [|right; left; exact H].
           right. right. exists x, kx. split; [left; reflexivity|split; assumption].
        -- right. right. exists it', k'. split; [right; exact H1|split; assumption].
    + pose proof (dedup_check_nokey seen keepf x Kx) as Hs.
      destruct (dedup_check seen keepf x) as [[keep seen'] keepf']. cbn [fst snd] in Hs. subst seen'.
      destruct (IH seen keepf' it k Hin Hk) as [H|[H|(it' & k' & H1 & H2 & H3)]].
      * left. destruct keep; [right|]; exact H.
      * right. left. exact H.
      * right. right. exists it', k'. split; [destruct keep; [right|]; exact H1|split; assumption].
Qed.
