(* NoLoss.v -- a successful evaluation never hides a live item.
   NL s s': every item that was inside the scope of s and is still live in s' is inside the scope
   of s'.  Scopes are narrowed by commands and adjacent groups; this lemma is what makes the
   `Unconsumed` test of run_subparser (which only looks inside the final scope) a test about the
   whole window the parser was started on. *)
From BpafLemmas Require Import Tac Find Reach Ledger.

Definition lenwf (s : state) : Prop := length (ist s) = length (items s).

Lemma reach_lenwf K s s' : reach K s s' -> lenwf s -> lenwf s'.
Proof.
  intros H. apply reach_ext in H. destruct H as [l E]. unfold lenwf.
  rewrite (ext_items _ _ _ _ E), (ext_len _ _ _ _ E). auto.
Qed.

Definition NL (s s' : state) : Prop :=
  forall i, in_scope s i = true -> live s' i -> in_scope s' i = true.

Definition same_scope (s s' : state) : Prop :=
  sc_start s' = sc_start s /\ sc_end s' = sc_end s.

Lemma same_scope_refl s : same_scope s s.
Proof. split; reflexivity. Qed.

Lemma same_scope_trans s1 s2 s3 : same_scope s1 s2 -> same_scope s2 s3 -> same_scope s1 s3.
Proof. unfold same_scope. intros [? ?] [? ?]. split; congruence. Qed.

Lemma same_scope_NL s s' : same_scope s s' -> NL s s'.
Proof. intros [H1 H2] i Hin _. unfold in_scope in *. rewrite H1, H2. exact Hin. Qed.


Lemma sremove_same_scope k ix s : same_scope s (sremove k ix s).
Proof. unfold sremove. destruct (_ && _); split; reflexivity. Qed.

Lemma same_scope_rel : rel_ok same_scope.
Proof.
  split; [apply same_scope_refl|apply same_scope_trans|split; reflexivity|]. intros s x loser w H _. exact H.
Qed.

Lemma set_scope_same_scope s t fin : set_scope t (sc_start s) (sc_end s) = Some fin -> same_scope s fin.
Proof. intros H. apply set_scope_fields in H. unfold same_scope. tauto. Qed.

Lemma window_lenwf s ta : window s ta -> lenwf s -> lenwf ta.
Proof. intros (a & b & H) Hw. apply set_scope_fields in H. destruct H as (Hi & Ht & _). unfold lenwf in *. congruence. Qed.

Lemma first_item_first s ix :
  lenwf s -> first_item_ix s = Some ix ->
  in_scope s ix = true /\ forall i, in_scope s i = true -> live s i -> ix <= i.
Proof.
  intros Hw H. unfold first_item_ix in H.
  pose proof (find_item_some _ _ _ H) as (Hin & _).
  split; [exact Hin|]. intros i Hi Hl.
  destruct (Nat.le_gt_cases ix i) as [|Hlt]; [assumption|exfalso]. apply in_scope_iff in Hi.
  unfold live, present_at in Hl. destruct (ist_at s i) as [st|] eqn:Hst; [|discriminate]. cbn in Hl.
  assert (Hlen : i < length (items s)).
  { rewrite <- Hw. apply nth_error_Some. unfold ist_at in Hst. congruence. }
  destruct (nth_error (items s) i) as [a|] eqn:Ha; [|apply nth_error_None in Ha; lia].
  assert (Hc : true = false) by (apply (find_item_before _ _ _ H i a st); [lia|auto|auto|congruence]).
  discriminate Hc.
Qed.

Section WithK.
Variable K : ckind -> Prop.

Lemma NL_trans s1 s2 s3 : NL s1 s2 -> NL s2 s3 -> reach K s2 s3 -> NL s1 s3.
Proof.
  intros H12 H23 R i Hin Hl. apply H23; [|exact Hl]. apply H12; [exact Hin|].
  eapply reach_mono; eauto.
Qed.

Definition nlr (s s' : state) : Prop := lenwf s -> reach K s s' /\ NL s s'.

Lemma nlr_of s s' : reach K s s' -> same_scope s s' -> nlr s s'.
Proof. intros R H _. split; [exact R|apply same_scope_NL; exact H]. Qed.

Lemma nlr_rel : rel_ok nlr.
Proof.
  split.
  - intros s. apply nlr_of; [constructor|apply same_scope_refl].
  - intros s1 s2 s3 H12 H23 Hw. destruct (H12 Hw) as [R1 N1].
    destruct (H23 (reach_lenwf K _ _ R1 Hw)) as [R2 N2]. split; [eapply reach_trans; eauto|eapply NL_trans; eauto].
  - intros s c. apply nlr_of; [apply reach_current|split; reflexivity].
  - intros s x loser w H Hlt Hw. destruct (H Hw) as [R N]. split.
    + eapply reach_trans; [exact R|apply save_conflicts_reach; exact Hlt].
    + intros i Hin Hl. change (in_scope (save_conflicts x loser w) i) with (in_scope x i). apply N; [exact Hin|].
      unfold live, present_at, ist_at, save_conflicts in *. cbn in Hl. rewrite save_conflicts_go_present in Hl. exact Hl.
Qed.

Definition ev_nl (ev : evaluator) : Prop :=
  forall s v s', lenwf s -> ev s = (ROk v, s') -> NL s s'.
Definition ev_good (ev : evaluator) : Prop := ev_reach K ev /\ ev_nl ev.
Definition run_nl (run : state -> sres * state) : Prop :=
  forall s v s', lenwf s -> run s = (SOk v, s') -> NL s s' /\ first_item_ix s' = None.
Definition run_good (run : state -> sres * state) : Prop := run_reach K run /\ run_nl run.

Lemma ev_good_nlr ev : ev_reach K ev -> ok_respects nlr ev -> ev_good ev.
Proof. intros Hr Hn. split; [exact Hr|]. intros s v s' Hw E. apply (Hn _ _ _ E Hw). Qed.

Lemma run_good_nlr q inf env :
  run_reach K (run_sub env (Options q inf)) -> ok_respects_run nlr (run_sub env (Options q inf)) ->
  run_good (run_sub env (Options q inf)).
Proof.
  intros Hr Hn. split; [exact Hr|]. intros s v s' Hw E. split; [apply (Hn _ _ _ E Hw)|]. apply run_sub_ok in E. apply E.
Qed.

Lemma leaf_nlr ev : ev_reach K ev -> respects same_scope ev -> ok_respects nlr ev.
Proof.
  intros Hr Hs s v s' E. rewrite ev_reach_respects in Hr. apply nlr_of; [eapply (respects_at (reach K)); eauto|eapply (respects_at same_scope); eauto].
Qed.

Lemma adjacent_nlr ev fi : ok_respects nlr ev -> ok_respects nlr (eval_adjacent ev fi).
Proof.
  intros H s v s' E Hw. pose proof (eval_adjacent_cases ev fi s) as C. rewrite E in C.
  destruct C as (ta & t1 & W & Ev & _ & Sc).
  destruct (H _ _ _ Ev (window_lenwf _ _ W Hw)) as [R _].
  split; [|apply same_scope_NL; eapply set_scope_same_scope; eauto].
  eapply reach_trans; [apply (window_rel _ (reach_scope K)); exact W|].
  eapply reach_trans; [exact R|eapply reach_scope; eauto].
Qed.

(* A command narrows the scope for good, to what follows its name.  The name was the first live item of
   the old scope and is consumed, so whatever of the old scope is live later lies behind it. *)
Lemma cmd_nlr name aliases shorts help adjacent m_sub i_sub run :
  (forall w, In w ((name :: aliases) ++ map utf8_encode_char shorts) -> K (KCmd w)) ->
  ok_respects_run nlr run ->
  ok_respects nlr (cmd_body name aliases shorts help adjacent m_sub i_sub run).
Proof.
  intros Hk Hrun s v s' E Hw. rewrite cmd_body_eq in E.
  pose proof (take_cmd_any_reach K _ s Hk) as R1.
  destruct (take_cmd_any_cases ((name :: aliases) ++ map utf8_encode_char shorts) s)
    as [(w & ix & a & _ & Hf & _ & _ & Et)|[Et|Et]]; rewrite Et in E, R1; try discriminate. cbn [snd] in R1.
  set (s1 := set_current (sremove (KCmd w) ix s) (Some ix)) in *.
  destruct (cmd_entered name s1) as [s3|] eqn:Ee; [|discriminate].
  pose proof (cmd_entered_rel _ (reach_rel K) (reach_scope K) (reach_path K) _ _ _ Ee) as R3.
  apply cmd_entered_fields in Ee. destruct Ee as (cur & s2 & Ec & E2 & E3).
  assert (cur = ix) by (unfold s1 in Ec; cbn in Ec; congruence). subst cur.
  apply set_scope_fields in E2. destruct E2 as (_ & T2 & _ & _ & _ & A2 & B2 & _).
  destruct (first_item_first _ _ Hw Hf) as [Hin Hfirst].
  assert (Hdead : ~ live s1 ix).
  { pose proof (find_item_some _ _ _ Hf) as (_ & a' & st & _ & Hst & Hp & _).
    intros Hl. change (present_at (sremove (KCmd w) ix s) ix = Some true) in Hl.
    rewrite (present_at_sremove _ _ _ st ix Hin Hst Hp), Nat.eqb_refl in Hl. discriminate. }
  assert (Key : forall sx, reach K s3 sx -> sc_start sx = ix -> sc_end sx = sc_end s -> reach K s sx /\ NL s sx).
  { intros sx Rx Hs He. split; [eapply reach_trans; [exact R1|]; eapply reach_trans; eauto|].
    intros i Hi Hl.
    assert (Hl1 : live s1 i).
    { apply (reach_mono K _ _ _ Rx) in Hl. unfold live, present_at, ist_at in *. subst s3. cbn [ist set_path] in Hl. rewrite T2 in Hl. exact Hl. }
    assert (Hl0 : live s i) by (apply (reach_mono K _ _ _ R1); exact Hl1).
    specialize (Hfirst i Hi Hl0). assert (i <> ix) by (intros ->; exact (Hdead Hl1)).
    apply in_scope_iff in Hi. apply in_scope_iff. lia. }
  assert (S3 : sc_start s3 = ix /\ sc_end s3 = sc_end s).
  { subst s3. cbn [sc_start sc_end set_path]. rewrite A2, B2. unfold s1. cbn [sc_end set_current].
    destruct (sremove_same_scope (KCmd w) ix s) as [_ ->]. auto. }
  assert (Hw3 : lenwf s3) by (eapply reach_lenwf; [eapply reach_trans; [exact R1|exact R3]|exact Hw]).
  destruct adjacent.
  - pose proof (cmd_adjacent_cases run s3) as C. rewrite E in C. destruct C as (w0 & t & W & Er & Sc).
    destruct (Hrun _ _ _ Er (window_lenwf _ _ W Hw3)) as [Rr _].
    apply set_scope_fields in Sc as F. destruct F as (_ & _ & _ & _ & _ & A6 & B6 & _).
    apply Key; [|rewrite A6; tauto|rewrite B6; tauto].
    eapply reach_trans; [apply (window_rel _ (reach_scope K)); exact W|].
    eapply reach_trans; [exact Rr|eapply reach_scope; eauto].
  - unfold lift_run in E. destruct (run s3) as [r s4] eqn:Er. destruct r; try discriminate E.
    assert (s4 = s') by (cbn in E; congruence). subst s4.
    destruct (Hrun _ _ _ Er Hw3) as [R4 N4]. destruct (Key s3 (reach_refl _ _)) as [R03 N3]; try tauto.
    split; [eapply reach_trans; eauto|eapply NL_trans; eauto].
Qed.

End WithK.

Theorem eval_good_all K env :
  (forall p, kinds_ok K p -> ev_good K (eval env p)) /\
  (forall ps, lkinds_ok K ps -> Forall (ev_good K) (evals env ps)) /\
  (forall o, okinds_ok K o -> run_good K (run_sub env o)).
Proof.
  destruct (eval_reach_all K env) as (ER & ELR & ORR).
  destruct (kinds_ok_every K) as (Ep & El & Eo).
  destruct (eval_ok_respects (nlr K) (nlr_rel K) env (kinds_ok K) (okinds_ok K)) as (Hp & Hl & Ho).
  - intros n p a H. apply leaf_nlr; [apply eval_flag_reach, H|apply (flag_rel _ same_scope_rel), sremove_same_scope].
  - intros n mv ty adj [H1 H2]. apply leaf_nlr; [apply eval_arg_reach; assumption|apply (arg_rel _ same_scope_rel), sremove_same_scope].
  - intros mv ty pos help H. apply leaf_nlr; [apply eval_pos_reach, H|apply (pos_rel _ same_scope_rel), sremove_same_scope].
  - intros mv help check anywhere H. apply leaf_nlr; [apply eval_any_reach, H|apply (any_rel _ same_scope_rel), sremove_same_scope].
  - intros name aliases shorts help adjacent sub [Hk _]. apply cmd_nlr. exact Hk.
  - intros fields _ H. apply adjacent_nlr. apply (con_okrel _ (nlr_rel K)). exact H.
  - split; [|split].
    + intros p Hk. apply ev_good_nlr; [apply ER|apply Hp]; auto.
    + intros ps Hk. specialize (ELR ps Hk). specialize (Hl ps (El ps Hk)).
      induction ELR as [|ev evs Hr _ IH]; inv Hl; constructor; auto using ev_good_nlr.
    + intros [q inf] Hk. apply run_good_nlr; [apply ORR|apply Ho]; auto.
Qed.
