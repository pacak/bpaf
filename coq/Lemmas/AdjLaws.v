(* AdjLaws.v -- adjacent groups (C19).  For a member parser that keeps its scope and consumes only inside it
   (`ev_inscope`), the block a group returns is one contiguous run of the line, starting at its first item, fully
   consumed, and nothing outside it is touched; start offsets are tried left to right; a failed group hands the
   caller's scope back. *)
From BpafLemmas Require Import Tac Find Reach Ledger NoLoss C05Lemmas.

Lemma take_while_all {A} (f : A -> bool) l i x :
  i < length (take_while f l) -> nth_error l i = Some x -> f x = true.
Proof.
  revert i. induction l as [|h t IH]; intros i Hi Hn; cbn in *; [lia|].
  destruct (f h) eqn:Hf; cbn in Hi; [|lia].
  destruct i; cbn in Hn; [inv Hn; exact Hf|]. eapply IH; eauto. lia.
Qed.

Lemma take_while_length_le {A} (f : A -> bool) l : length (take_while f l) <= length l.
Proof. induction l as [|h t IH]; cbn; [lia|]. destruct (f h); cbn; lia. Qed.

Theorem adjacently_available_live s start :
  fst (adjacently_available_from s start) = start /\
  forall i, start <= i < snd (adjacently_available_from s start) -> live s i.
Proof.
  unfold adjacently_available_from. cbn [fst snd]. split; [reflexivity|].
  intros i Hi. unfold live, present_at, ist_at.
  destruct (nth_error (ist s) i) as [st|] eqn:E.
  - cbn. f_equal. eapply (take_while_all present (skipn start (ist s)) (i - start)); [lia|].
    rewrite nth_error_skipn. replace (start + (i - start)) with i by lia. exact E.
  - exfalso. apply nth_error_None in E.
    pose proof (take_while_length_le present (skipn start (ist s))) as Hl.
    rewrite skipn_length in Hl. lia.
Qed.

Lemma both_present_from_spec ix this orig r :
  both_present_from ix this orig = r ->
  match r with
  | Some off =>
    ix <= off /\
    (forall k, k < off - ix -> forall x y, nth_error this k = Some x -> nth_error orig k = Some y ->
                                           present x && present y = false)
  | None =>
    forall k x y, nth_error this k = Some x -> nth_error orig k = Some y -> present x && present y = false
  end.
Proof.
  revert ix orig r. induction this as [|a this IH]; intros ix orig r H; cbn in H.
  - subst r. intros k x y Hx. destruct k; discriminate.
  - destruct orig as [|b orig].
    + subst r. intros k x y _ Hy. destruct k; discriminate.
    + destruct (present a && present b) eqn:Hc.
      * subst r. split; [lia|]. intros k Hk. lia.
      * specialize (IH (S ix) orig r H). destruct r as [off|].
        -- destruct IH as [Hle Hb]. split; [lia|].
           intros k Hk x y Hx Hy. destruct k as [|k]; cbn in *.
           ++ inv Hx. inv Hy. exact Hc.
           ++ eapply Hb; eauto. lia.
        -- intros k x y Hx Hy. destruct k as [|k]; cbn in *.
           ++ inv Hx. inv Hy. exact Hc.
           ++ eapply IH; eauto.
Qed.

(* ASNone: inside the scope the group was left with, nothing that was available to it is still live *)
Theorem adjacent_scope_none ta orig :
  lenwf ta -> adjacent_scope ta orig = ASNone ->
  forall i, sc_start ta <= i < sc_end ta -> ~ (live ta i /\ live orig i).
Proof.
  unfold adjacent_scope. intros Hw H i Hi [Hl1 Hl2].
  pose proof (live_lt _ _ Hl1) as Hlt1.
  unfold live, present_at, ist_at in Hl1, Hl2.
  destruct (nth_error (ist ta) i) as [x|] eqn:Ex; [|discriminate].
  destruct (nth_error (ist orig) i) as [y|] eqn:Ey; [|discriminate].
  assert (Hxy : present x && present y = true) by (cbn in Hl1, Hl2; apply andb_true_intro; split; congruence).
  assert (Ex' : nth_error (skipn (sc_start ta) (ist ta)) (i - sc_start ta) = Some x).
  { rewrite nth_error_skipn. replace (sc_start ta + (i - sc_start ta)) with i by lia. exact Ex. }
  assert (Ey' : nth_error (skipn (sc_start ta) (ist orig)) (i - sc_start ta) = Some y).
  { rewrite nth_error_skipn. replace (sc_start ta + (i - sc_start ta)) with i by lia. exact Ey. }
  destruct (is_nil (items ta)) eqn:Hnil.
  - unfold lenwf in Hw. destruct (items ta); [cbn in Hw; lia|discriminate].
  - destruct (Nat.ltb (length (ist ta)) (sc_start ta) || Nat.ltb (length (ist orig)) (sc_start ta)); [discriminate|].
    destruct (both_present_from (sc_start ta) (skipn (sc_start ta) (ist ta)) (skipn (sc_start ta) (ist orig)))
      as [off|] eqn:Hb; apply both_present_from_spec in Hb.
    + destruct (Nat.eqb (sc_start ta) (sc_start ta) && Nat.eqb (sc_end ta) off) eqn:Hc; [|discriminate].
      apply andb_prop in Hc. destruct Hc as [_ Hc]. apply Nat.eqb_eq in Hc. destruct Hb as [_ Hb].
      rewrite (Hb (i - sc_start ta) ltac:(lia) x y Ex' Ey') in Hxy. discriminate.
    + rewrite (Hb _ x y Ex' Ey') in Hxy. discriminate.
Qed.

(* inrel s s': s' keeps the scope, the items and the ledger length of s, and every item that went
   from live to not-live was inside the scope *)
Definition inrel (s s' : state) : Prop :=
  same_scope s s' /\ items s' = items s /\ length (ist s') = length (ist s) /\
  forall i, live s i -> ~ live s' i -> in_scope s i = true.
Definition ev_inscope (ev : evaluator) : Prop := forall s, inrel s (snd (ev s)).

Lemma inrel_refl s : inrel s s.
Proof. unfold inrel, same_scope. repeat split; auto; try (intros; tauto). Qed.

Lemma inrel_current s c : inrel s (set_current s c).
Proof. unfold inrel, same_scope. repeat split; auto; try (intros i Hl Hd; exfalso; apply Hd; exact Hl). Qed.

Lemma inrel_sremove k ix s : inrel s (sremove k ix s).
Proof.
  split; [apply sremove_same_scope|]. split; [apply sremove_items|]. split.
  - unfold sremove. destruct (_ && _); cbn; [apply update_nth_length|reflexivity].
  - intros i Hl Hd. unfold sremove in Hd.
    destruct (in_scope s ix) eqn:Hin; cbn [andb] in Hd; [|tauto].
    destruct (ist_at s ix) as [st|] eqn:Hst; [|tauto].
    destruct (present st) eqn:Hp; [|tauto].
    destruct (Nat.eq_dec i ix) as [->|Hne]; [exact Hin|].
    exfalso. apply Hd. unfold live, present_at, ist_at in *. cbn.
    rewrite update_nth_other by exact Hne. exact Hl.
Qed.

Lemma inrel_trans s1 s2 s3 : inrel s1 s2 -> inrel s2 s3 -> inrel s1 s3.
Proof.
  intros (S1 & I1 & L1 & C1) (S2 & I2 & L2 & C2).
  split; [eapply same_scope_trans; eauto|]. split; [congruence|]. split; [congruence|].
  intros i Hl Hd.
  destruct (present_at s2 i) as [[|]|] eqn:E.
  - assert (in_scope s2 i = true) by (apply C2; [exact E|exact Hd]).
    destruct S1 as [A B]. unfold in_scope in *. rewrite <- A, <- B. assumption.
  - apply C1; [exact Hl|]. unfold live. congruence.
  - apply C1; [exact Hl|]. unfold live. congruence.
Qed.

Lemma inrel_lenwf s s' : inrel s s' -> lenwf s -> lenwf s'.
Proof. intros (_ & I & L & _) H. unfold lenwf in *. congruence. Qed.

Lemma inrel_save_conflicts s x loser w : inrel s x -> inrel s (save_conflicts x loser w).
Proof.
  intros (S1 & I1 & L1 & C1). unfold save_conflicts.
  split; [exact S1|]. split; [exact I1|]. split; [cbn; rewrite save_conflicts_go_length; exact L1|].
  intros i Hl Hd. apply C1; [exact Hl|]. intros Hx. apply Hd.
  unfold live, present_at, ist_at in *. cbn. rewrite save_conflicts_go_present. exact Hx.
Qed.

Lemma inrel_rel : rel_ok inrel.
Proof.
  split; [apply inrel_refl|apply inrel_trans|apply inrel_current|]. intros s x loser w H _. apply inrel_save_conflicts, H.
Qed.

Lemma ev_inscope_respects : ev_inscope = respects inrel.
Proof. reflexivity. Qed.

Lemma eval_flag_inscope env n p a : ev_inscope (eval_flag env n p a).
Proof. rewrite ev_inscope_respects. apply (flag_rel inrel inrel_rel inrel_sremove). Qed.
Lemma eval_arg_inscope env n mv ty adj : ev_inscope (eval_arg env n mv ty adj).
Proof. rewrite ev_inscope_respects. apply (arg_rel inrel inrel_rel inrel_sremove). Qed.
Lemma eval_pos_inscope mv ty pos help : ev_inscope (eval_pos mv ty pos help).
Proof. rewrite ev_inscope_respects. apply (pos_rel inrel inrel_rel inrel_sremove). Qed.
Lemma eval_any_inscope mv help check anywhere : ev_inscope (eval_any mv help check anywhere).
Proof. rewrite ev_inscope_respects. apply (any_rel inrel inrel_rel inrel_sremove). Qed.
Lemma con_inscope ff evs : Forall ev_inscope evs -> ev_inscope (con_body ff evs).
Proof. rewrite ev_inscope_respects. apply con_rel, inrel_rel. Qed.

Lemma inscope_bodies :
  forall env,
    (forall n p a, ev_inscope (eval_flag env n p a)) /\
    (forall n mv ty adj, ev_inscope (eval_arg env n mv ty adj)) /\
    (forall mv ty pos help, ev_inscope (eval_pos mv ty pos help)) /\
    (forall mv help check anywhere, ev_inscope (eval_any mv help check anywhere)) /\
    (forall ev c, ev_inscope ev -> ev_inscope (optional_body ev c)) /\
    (forall ev c m, ev_inscope ev -> ev_inscope (guard_body ev c m)) /\
    (forall ev f, ev_inscope ev -> ev_inscope (parse_body ev f)) /\
    (forall ev f, ev_inscope ev -> ev_inscope (map_body ev f)) /\
    (forall ev c, ev_inscope ev -> ev_inscope (many_body ev c)) /\
    (forall ev m c, ev_inscope ev -> ev_inscope (some_body ev m c)) /\
    (forall ev, ev_inscope ev -> ev_inscope (count_body ev)) /\
    (forall ev, ev_inscope ev -> ev_inscope (last_body ev)) /\
    (forall ev fb, ev_inscope ev -> ev_inscope (fallback_with_body ev fb)) /\
    (forall ev, ev_inscope ev -> ev_inscope (hide_body ev)) /\
    (forall eva evb, ev_inscope eva -> ev_inscope evb -> ev_inscope (or_body eva evb)) /\
    (forall ff evs, Forall ev_inscope evs -> ev_inscope (con_body ff evs)).
Proof.
  intros env. rewrite ev_inscope_respects. pose proof inrel_rel as R. pose proof inrel_sremove as Rm.
  repeat apply conj; intros; auto using flag_rel, arg_rel, pos_rel, any_rel, optional_rel, guard_rel, parse_rel, map_rel,
    many_rel, some_rel, count_rel, last_rel, fallback_with_rel, hide_rel, or_rel, con_rel.
Qed.

Lemma set_scope_live s a b s' i : set_scope s a b = Some s' -> (live s' i <-> live s i).
Proof.
  intros H. apply set_scope_fields in H. destruct H as (_ & Hi & _).
  unfold live, present_at, ist_at. rewrite Hi. tauto.
Qed.

Lemma adjacent_scope_some ta orig a b : adjacent_scope ta orig = ASSome a b -> a = sc_start ta.
Proof.
  unfold adjacent_scope. destruct (is_nil (items ta)); [discriminate|].
  destruct (_ || _); [discriminate|].
  destruct (both_present_from _ _ _); [|discriminate].
  destruct (_ && _); [discriminate|]. intros H; inv H. reflexivity.
Qed.

(* What adj_inner hands back: the group was evaluated successfully on a window of the ORIGINAL ledger that
   begins where the window it was started on begins; every item of the window that was available is consumed;
   nothing outside the window changed. *)
Theorem adj_inner_block_start ev orig before fuel this_arg best v fin :
  ev_inscope ev -> lenwf orig ->
  (forall i, live this_arg i <-> live orig i) -> lenwf this_arg ->
  adj_inner ev orig before fuel this_arg best = AReturn v fin ->
  exists b,
    (forall i, sc_start this_arg <= i < b -> live orig i -> ~ live fin i) /\
    (forall i, live orig i -> ~ live fin i -> sc_start this_arg <= i < b) /\
    same_scope orig fin.
Proof.
  intros Hev Hwo. revert this_arg best.
  induction fuel as [|f IH]; intros this_arg best Hsame Hwt H; [rewrite adj_inner_O in H; discriminate|].
  rewrite adj_inner_S in H. pose proof (Hev this_arg) as Hrel.
  destruct (ev this_arg) as [r ta] eqn:He. cbn in Hrel.
  destruct r; try discriminate.
  - destruct (adjacent_scope ta orig) as [| |na nb] eqn:Ha; try discriminate.
    + destruct (set_scope ta (sc_start orig) (sc_end orig)) as [fin'|] eqn:Hs; [|discriminate]. inv H.
      assert (Hwta : lenwf ta) by (eapply inrel_lenwf; eauto).
      destruct Hrel as (Hsc & _ & _ & Hin).
      destruct Hsc as [A B].
      exists (sc_end ta). split; [|split].
      * intros i Hi Hlo Hlf. apply (adjacent_scope_none ta orig Hwta Ha i); [lia|].
        split; [|exact Hlo]. apply (proj1 (set_scope_live _ _ _ _ i Hs)). exact Hlf.
      * intros i Hlo Hdf.
        assert (Hd : ~ live ta i) by (intros Hl; apply Hdf; apply (proj2 (set_scope_live _ _ _ _ i Hs)); exact Hl).
        assert (Hi : in_scope this_arg i = true) by (apply Hin; [apply Hsame; exact Hlo|exact Hd]).
        unfold in_scope in Hi. apply andb_prop in Hi. destruct Hi as [H1 H2].
        apply Nat.leb_le in H1. apply Nat.ltb_lt in H2. lia.
      * apply set_scope_fields in Hs. destruct Hs as (_ & _ & _ & _ & _ & S1 & S2 & _). split; assumption.
    + destruct (set_scope orig na nb) as [ta'|] eqn:Hs; [|discriminate].
      pose proof (adjacent_scope_some _ _ _ _ Ha) as Hna.
      destruct Hrel as ((A & B) & _).
      assert (Hst : sc_start ta' = sc_start this_arg).
      { apply set_scope_fields in Hs. destruct Hs as (_ & _ & _ & _ & _ & S1 & _). congruence. }
      rewrite <- Hst. eapply IH; [| |exact H].
      * intros i. apply (set_scope_live _ _ _ _ i Hs).
      * apply set_scope_fields in Hs. destruct Hs as (Hi & Hist & _). unfold lenwf in *. congruence.
  - destruct (Nat.ltb before (remaining ta)); [discriminate|]. cbn in H.
    destruct (Nat.ltb (b_consumed best) (before - remaining ta)); discriminate.
Qed.

Theorem adj_inner_block ev orig before fuel this_arg best v fin :
  ev_inscope ev -> lenwf orig ->
  (forall i, live this_arg i <-> live orig i) -> lenwf this_arg ->
  adj_inner ev orig before fuel this_arg best = AReturn v fin ->
  exists a b,
    (forall i, a <= i < b -> live orig i -> ~ live fin i) /\
    (forall i, live orig i -> ~ live fin i -> a <= i < b).
Proof.
  intros Hev Hwo Hsame Hwt H.
  destruct (adj_inner_block_start _ _ _ _ _ _ _ _ Hev Hwo Hsame Hwt H) as (b & H1 & H2 & _). eauto.
Qed.

Theorem adj_try_block ev orig width start best v fin :
  ev_inscope ev -> lenwf orig ->
  adj_try ev orig width start best = AReturn v fin ->
  exists b,
    (forall i, start <= i < b -> live orig i -> ~ live fin i) /\
    (forall i, live orig i -> ~ live fin i -> start <= i < b) /\
    same_scope orig fin.
Proof.
  intros Hev Hwo H. rewrite adj_try_eq in H.
  destruct (adj_open orig width start) as [| |scratch rest] eqn:O; try discriminate.
  destruct (ev scratch) as [r0 scratch']. destruct (halts r0); [discriminate|].
  destruct (Nat.eqb (remaining scratch) (remaining scratch')); [discriminate|].
  destruct rest as [[before ta]|]; [|discriminate].
  apply adj_open_probe in O. destruct O as (_ & _ & ta1 & b & _ & _ & Et & _).
  pose proof (fun i => set_scope_live _ _ _ _ i Et) as L. apply set_scope_fields in Et. destruct Et as (Ei & Ht & _ & _ & _ & <- & _).
  eapply adj_inner_block_start; [exact Hev|exact Hwo|intros i; apply L| |exact H].
  unfold lenwf in *. congruence.
Qed.

Lemma adj_starts_sorted s width : forall i j a b,
  nth_error (adj_starts s width) i = Some a -> nth_error (adj_starts s width) j = Some b -> i < j -> a < b.
Proof.
  unfold adj_starts.
  assert (G : forall (f : nat -> bool) n st i j a b,
             nth_error (filter f (seq st n)) i = Some a -> nth_error (filter f (seq st n)) j = Some b -> i < j -> a < b).
  { intros f. induction n as [|n IH]; intros st i j a b Hi Hj Hlt; cbn [seq filter] in *; [destruct i; discriminate|].
    destruct (f st).
    - destruct i as [|i]; destruct j as [|j]; try lia; cbn [nth_error] in *.
      + inversion Hi; subst. assert (Hin : In b (filter f (seq (S a) n))) by (eapply nth_error_In; eauto).
        apply filter_In in Hin. destruct Hin as [Hin _]. apply in_seq in Hin. lia.
      + eapply IH; eauto. lia.
    - eapply IH; eauto. }
  intros i j a b. apply G.
Qed.

(* start offsets are tried from left to right; the value comes from the FIRST one at which the group
   parses (so `many` over the group yields the blocks in command-line order) *)
Theorem adj_outer_first ev orig width : forall starts best v fin,
  adj_outer ev orig width starts best = (ROk v, fin) ->
  exists before start after best',
    starts = before ++ start :: after /\
    adj_try ev orig width start best' = AReturn v fin /\
    (forall st, In st before -> exists b0 b1, adj_try ev orig width st b0 = ANext b1).
Proof.
  induction starts as [|st more IH]; intros best v fin H; cbn [adj_outer] in H;
    [destruct (set_scope _ _ _); discriminate H|].
  pose proof (adj_try_cases ev orig width st best) as C.
  destruct (adj_try ev orig width st best) as [v0 s0|best'|r s0] eqn:E.
  - inversion H; subst. exists [], st, more, best. split; [reflexivity|]. split; [exact E|]. intros x [].
  - destruct (IH best' v fin H) as (before & start & after & b' & Hs & Ht & Hb).
    exists (st :: before), start, after, b'. split; [cbn; rewrite Hs; reflexivity|]. split; [exact Ht|].
    intros x [<-|Hx]; [eauto|apply Hb, Hx].
  - inversion H; subst. discriminate C.
Qed.

Theorem eval_adjacent_block ev fi s v s' :
  ev_inscope ev -> lenwf s ->
  eval_adjacent ev fi s = (ROk v, s') ->
  exists a b,
    (forall i, a <= i < b -> live s i -> ~ live s' i) /\
    (forall i, live s i -> ~ live s' i -> a <= i < b) /\
    same_scope s s'.
Proof.
  intros Hev Hw H. unfold eval_adjacent in H. destruct fi as [it|]; [|discriminate].
  apply adj_outer_first in H. destruct H as (_ & start & _ & best' & _ & H & _).
  destruct (adj_try_block _ _ _ _ _ _ _ Hev Hw H) as (b & H1 & H2 & H3). eauto.
Qed.

(* The attempts of a group run in windows that start at the group's first item; when the group fails, the
   state handed back -- the one of the attempt that got furthest -- carries the CALLER's scope again, so what
   the caller looks for next (the help and version flags first of all) is looked for on the whole level. *)
Theorem adjacent_err_scope ev fi s e s' :
  eval_adjacent ev fi s = (RErr e, s') -> same_scope s s'.
Proof.
  intros H. pose proof (eval_adjacent_cases ev fi s) as C. rewrite H in C. destruct C as (t & _ & Sc).
  eapply set_scope_same_scope; eauto.
Qed.
