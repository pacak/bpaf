(* HelpOrder.v -- C12: the help document is
     description ; usage block ; header ; item lists ; footer
   in that order.  The Doc builder merges adjacent text chunks of one style, so a writer does not
   literally append; but a CLOSED prefix -- one that does not end in a text chunk -- is never touched
   again: `W (e ++ x) = e ++ W x` for every writer W of Model/Help.v and closed `e`. *)
From BpafModel Require Import Help.
From BpafLemmas Require Import HelpItems.
Import ListNotations.

Definition closed (d : doc) : Prop :=
  match rev d with TText _ _ :: _ => False | _ => True end.

Lemma closed_snoc_start d b : closed (d ++ [TStart b]).
Proof. unfold closed. rewrite rev_app_distr. exact I. Qed.
Lemma closed_snoc_end d b : closed (d ++ [TEnd b]).
Proof. unfold closed. rewrite rev_app_distr. exact I. Qed.
Lemma closed_nil : closed [].
Proof. exact I. Qed.

Lemma style_eqb_eq a b : style_eqb a b = true -> a = b.
Proof. destruct a, b; cbn; congruence. Qed.

(* Doc::write_str looks at the last token only: it appends a text chunk or extends a final chunk of
   the same style *)
Lemma dwrite_snoc d t sty s : dwrite (d ++ [t]) sty s = d ++ dwrite [t] sty s.
Proof.
  unfold dwrite. rewrite rev_app_distr. cbn [rev app].
  destruct t as [sty' s'|b|b]; try (rewrite <- app_assoc; reflexivity).
  destruct (style_eqb sty sty'); [|rewrite <- app_assoc; reflexivity].
  cbn [rev app]. rewrite rev_involutive. reflexivity.
Qed.

Lemma dwrite_spec d sty s :
  dwrite d sty s = d ++ [TText sty s] \/
  exists r s', d = r ++ [TText sty s'] /\ dwrite d sty s = r ++ [TText sty (s' ++ s)].
Proof.
  destruct d as [|t r _] using rev_ind; [left; reflexivity|].
  rewrite dwrite_snoc. unfold dwrite. cbn [rev app].
  destruct t as [sty' s'|b|b]; try (left; rewrite <- app_assoc; reflexivity).
  destruct (style_eqb sty sty') eqn:E; [|left; rewrite <- app_assoc; reflexivity].
  apply style_eqb_eq in E. subst sty'. right. exists r, s'. split; reflexivity.
Qed.

Fixpoint wm_sep (s : bytes) (first : bool) (xs : list meta) (d : doc) : doc :=
  match xs with
  | [] => d
  | x :: t => wm_sep s false t (wm_go x (if first then d else dwrite d SText s))
  end.
Lemma wm_go_list c xs : list_node c -> exists s, forall d, wm_go (c xs) d = wm_sep s true xs d.
Proof.
  intros [->| ->]; eexists; intros d; cbn [wm_go]; generalize true; revert d;
    induction xs as [|x t IH]; intros d b; cbn; auto.
Qed.

Section Prefix.
Variable e : doc.
Hypothesis C : closed e.
Variable env : bytes -> option bytes.

Lemma dwrite_pre x sty s : dwrite (e ++ x) sty s = e ++ dwrite x sty s.
Proof.
  destruct x as [|t x _] using rev_ind.
  - rewrite app_nil_r. destruct (dwrite_spec e sty s) as [E|(r & s' & E & _)]; [exact E|].
    unfold closed in C. rewrite E, rev_app_distr in C. destruct C.
  - rewrite app_assoc, !dwrite_snoc, app_assoc. reflexivity.
Qed.
Lemma dtok_pre x t : dtok (e ++ x) t = e ++ dtok x t.
Proof. symmetry. apply app_assoc. Qed.
Lemma dchar_pre x sty c : dchar (e ++ x) sty c = e ++ dchar x sty c.
Proof. apply dwrite_pre. Qed.
Lemma ddoc_pre x buf : ddoc (e ++ x) buf = e ++ ddoc x buf.
Proof. symmetry. apply app_assoc. Qed.

Lemma dem_doc_pre x buf : dem_doc (e ++ x) buf = e ++ dem_doc x buf.
Proof.
  unfold dem_doc. rewrite dtok_pre.
  destruct buf as [|[[] p|b|b] rest]; try (rewrite app_assoc_reverse; apply dtok_pre).
  destruct (split_once_nl p) as [[a b]|].
  - rewrite dwrite_pre, dtok_pre, dwrite_pre, app_assoc_reverse, dtok_pre. apply dtok_pre.
  - rewrite dwrite_pre. apply dtok_pre.
Qed.
Lemma dmetavar_pre x mv : dmetavar (e ++ x) mv = e ++ dmetavar x mv.
Proof. unfold dmetavar. destruct (forallb is_metavar_char mv); rewrite !dwrite_pre; reflexivity. Qed.
Lemma dshortlong_usage_pre x n : dshortlong_usage (e ++ x) n = e ++ dshortlong_usage x n.
Proof. destruct n; cbn [dshortlong_usage]; rewrite !dwrite_pre, ?dchar_pre; reflexivity. Qed.
Lemma dshortlong_item_pre x n : dshortlong_item (e ++ x) n = e ++ dshortlong_item x n.
Proof. destruct n; cbn [dshortlong_item]; rewrite dwrite_pre, ?dchar_pre, ?dwrite_pre; reflexivity. Qed.
Lemma dbody_pre x h : dbody (e ++ x) h = e ++ dbody x h.
Proof. destruct h; cbn [dbody]; [|reflexivity]. rewrite dtok_pre, ddoc_pre. apply dtok_pre. Qed.
Lemma dblock_pre x t : dblock (e ++ x) t = e ++ dblock x t.
Proof. destruct t; cbn [dblock]; [|reflexivity]. rewrite dtok_pre, ddoc_pre. apply dtok_pre. Qed.
Lemma denv_line_pre x a b v val : denv_line (e ++ x) a b v val = e ++ denv_line x a b v val.
Proof. unfold denv_line. destruct a, b; rewrite !dtok_pre, !dwrite_pre; apply dtok_pre. Qed.

Lemma dwrite_item_pre x i : dwrite_item (e ++ x) i = e ++ dwrite_item x i.
Proof.
  destruct i; cbn [dwrite_item].
  - apply ddoc_pre.
  - apply dmetavar_pre.
  - apply dwrite_pre.
  - apply dshortlong_usage_pre.
  - rewrite dshortlong_usage_pre, dchar_pre. apply dmetavar_pre.
Qed.

Lemma wm_sep_pre s xs : Forall (fun m => forall x, wm_go m (e ++ x) = e ++ wm_go m x) xs ->
  forall first x, wm_sep s first xs (e ++ x) = e ++ wm_sep s first xs x.
Proof.
  induction 1 as [|m t Hm _ IH]; intros first x; cbn [wm_sep]; [reflexivity|].
  destruct first; rewrite ?dwrite_pre, Hm; apply IH.
Qed.

Lemma wm_go_pre m : forall x, wm_go m (e ++ x) = e ++ wm_go m x.
Proof.
  induction m as [c xs Hc IHxs|m IHm|m IHm|m IHm|i|m IHm|m dd IHm|m dd IHm| |m dd IHm|m IHm] using meta_ind';
    intros x; cbn [wm_go]; try apply IHm.
  - destruct (wm_go_list c xs Hc) as [s E]. rewrite !E. apply wm_sep_pre, IHxs.
  - rewrite dwrite_pre, IHm. apply dwrite_pre.
  - rewrite dwrite_pre, IHm. apply dwrite_pre.
  - apply dwrite_item_pre.
  - rewrite IHm. apply dwrite_pre.
  - reflexivity.
  - apply ddoc_pre.
  - rewrite !dwrite_pre. apply IHm.
Qed.

Lemma dwrite_meta_pre x m u : dwrite_meta (e ++ x) m u = e ++ dwrite_meta x m u.
Proof. unfold dwrite_meta. rewrite dtok_pre, wm_go_pre. apply dtok_pre. Qed.

Lemma dwrite_path_pre path : forall x, dwrite_path (e ++ x) path = e ++ dwrite_path x path.
Proof.
  unfold dwrite_path. induction path as [|p t IH]; intros x; cbn [fold_left]; [reflexivity|].
  rewrite dwrite_pre, dchar_pre. apply IH.
Qed.

Lemma write_help_item_pre x it ie : write_help_item env (e ++ x) it ie = e ++ write_help_item env x it ie.
Proof.
  destruct it as [help ty|help ty|ty|metavar anywhere help|metavar help|name short help m i|name var help|name metavar var help|inner ty|ty]; cbn [write_help_item].
  - rewrite !dtok_pre, ddoc_pre. apply dtok_pre.
  - rewrite !dtok_pre, dem_doc_pre, !dtok_pre. reflexivity.
  - rewrite !dtok_pre. reflexivity.
  - rewrite dtok_pre, ddoc_pre, dtok_pre. apply dbody_pre.
  - rewrite dtok_pre, dmetavar_pre, dtok_pre. apply dbody_pre.
  - destruct short; rewrite dtok_pre, !dwrite_pre, ?dchar_pre, dtok_pre; apply dbody_pre.
  - rewrite dtok_pre, dshortlong_item_pre, dtok_pre, dbody_pre. destruct var; [apply denv_line_pre|reflexivity].
  - rewrite dtok_pre, dshortlong_item_pre, dchar_pre, dmetavar_pre, dtok_pre, dbody_pre.
    destruct var; [apply denv_line_pre|reflexivity].
  - rewrite dtok_pre, dwrite_meta_pre. apply dtok_pre.
  - rewrite !dtok_pre. reflexivity.
Qed.

Lemma write_deduped_pre items : forall x seen k ie,
  write_deduped env (e ++ x) items seen k ie = e ++ write_deduped env x items seen k ie.
Proof.
  induction items as [|it t IH]; intros x seen k ie; cbn [write_deduped]; [reflexivity|].
  destruct (dedup_check seen k it) as [[keep seen'] k'].
  destruct keep; rewrite ?write_help_item_pre; apply IH.
Qed.

Lemma write_groups_pre fuel : forall x items ie,
  write_groups env fuel (e ++ x) items ie =
  option_map (fun r => (e ++ fst r, snd r)) (write_groups env fuel x items ie).
Proof.
  induction fuel as [|f IH]; intros x items ie; cbn [write_groups]; [reflexivity|].
  destruct (Help.position is_group_start items) as [a|]; [|reflexivity].
  destruct (Help.position is_group_end items) as [b|]; [|reflexivity].
  destruct (Nat.leb a b); [|reflexivity]. rewrite write_deduped_pre. apply IH.
Qed.

Lemma write_help_items_pre x items ty name ie :
  write_help_items env (e ++ x) items ty name ie = e ++ write_help_items env x items ty name ie.
Proof.
  unfold write_help_items. destruct (items_of_ty ty IBNo items); [reflexivity|].
  rewrite !dtok_pre, dwrite_pre, !dtok_pre, write_deduped_pre, !dtok_pre. reflexivity.
Qed.

Lemma write_help_item_groups_pre x items ie :
  write_help_item_groups env (e ++ x) items ie = option_map (app e) (write_help_item_groups env x items ie).
Proof.
  unfold write_help_item_groups. rewrite write_groups_pre.
  destruct (write_groups env (S (length items)) x items ie) as [[d1 rest]|]; [|reflexivity].
  cbn [option_map fst snd]. rewrite !write_help_items_pre. reflexivity.
Qed.
End Prefix.

Lemma prefix_alone (W : doc -> doc) d : (forall x, W (d ++ x) = d ++ W x) -> W d = d ++ W [].
Proof. intros H. rewrite <- (H []), app_nil_r. reflexivity. Qed.

Lemma dblock_app d t : dblock d t = d ++ dblock [] t.
Proof. apply (prefix_alone (fun d => dblock d t)). intros x. apply dblock_pre. Qed.

Lemma closed_dblock d t : closed d -> closed (dblock d t).
Proof. intros H. destruct t; cbn [dblock]; [apply closed_snoc_end|exact H]. Qed.

(* C12: the description, the usage block, the header, the item lists and the footer appear in this
   order; each of the three declared texts is a block of its own; the item lists are what
   write_help_item_groups writes onto the empty document *)
Theorem render_help_parts env path inf pm hm ie d :
  render_help env path inf pm hm ie = Some d ->
  exists usage items,
    write_help_item_groups env [] (append_meta (append_meta [] pm) hm) ie = Some items /\
    d = dblock [] (i_descr inf) ++ ([TStart BBlock] ++ usage ++ [TEnd BBlock])
        ++ dblock [] (i_header inf) ++ items ++ dblock [] (i_footer inf).
Proof.
  unfold render_help. intros E.
  set (d1 := dtok (dblock [] (i_descr inf)) (TStart BBlock)) in *.
  assert (C1 : closed d1) by apply closed_snoc_start.
  match type of E with context [dblock (dtok ?x (TEnd BBlock)) (i_header inf)] => set (d2 := x) in * end.
  assert (E2 : exists usage, d2 = d1 ++ usage).
  { subst d2. destruct (i_usage inf) as [u|]; eexists.
    - apply (prefix_alone (fun d => ddoc d u)). intros x. apply ddoc_pre.
    - apply (prefix_alone (fun d => dtok (dwrite_meta (dwrite_path (dtok (dwrite (dwrite d SEmphasis b_usage) SText b_colon_sp)
                                                                        (TStart BMono)) path) pm true) (TEnd BMono))).
      intros x. rewrite !dwrite_pre, dtok_pre, dwrite_path_pre, dwrite_meta_pre by exact C1. apply dtok_pre. }
  destruct E2 as [usage E2].
  set (d3 := dblock (dtok d2 (TEnd BBlock)) (i_header inf)) in *.
  assert (C3 : closed d3) by apply closed_dblock, closed_snoc_end.
  rewrite <- (app_nil_r d3), write_help_item_groups_pre in E by exact C3.
  destruct (write_help_item_groups env [] _ ie) as [items|]; [|discriminate].
  inversion E; subst d. exists usage, items. split; [reflexivity|].
  rewrite dblock_app. subst d3. rewrite dblock_app, E2. subst d1. unfold dtok.
  rewrite <- !app_assoc. reflexivity.
Qed.

Theorem render_help_order env path inf pm hm ie d :
  render_help env path inf pm hm ie = Some d ->
  exists usage items,
    d = dblock [] (i_descr inf) ++ ([TStart BBlock] ++ usage ++ [TEnd BBlock])
        ++ dblock [] (i_header inf) ++ items ++ dblock [] (i_footer inf).
Proof. intros E. destruct (render_help_parts _ _ _ _ _ _ _ E) as (usage & items & _ & ->). eauto. Qed.

(* The prefix equations read as preservation (C12: what has been written is not changed by what is written
   after it): a document that extends a closed prefix still extends it after any writer. *)
Definition Ext (pre d : doc) : Prop := exists suf, d = pre ++ suf.

Lemma ext_trans a b c : Ext a b -> Ext b c -> Ext a c.
Proof. intros [x ->] [y ->]. exists (x ++ y). rewrite app_assoc. reflexivity. Qed.

Section Keep.
Variable pre : doc.
Hypothesis C : closed pre.

Lemma ext_keep (W : doc -> doc) : (forall x, W (pre ++ x) = pre ++ W x) -> forall d, Ext pre d -> Ext pre (W d).
Proof. intros H d [suf ->]. rewrite H. eexists; reflexivity. Qed.

Lemma ext_dchar d st c : Ext pre d -> Ext pre (dchar d st c).
Proof. apply (ext_keep (fun d => dchar d st c)). intros x. apply dchar_pre, C. Qed.

Lemma ext_dem_doc d b : Ext pre d -> Ext pre (dem_doc d b).
Proof. apply (ext_keep (fun d => dem_doc d b)). intros x. apply dem_doc_pre, C. Qed.

Lemma ext_dmetavar d mv : Ext pre d -> Ext pre (dmetavar d mv).
Proof. apply (ext_keep (fun d => dmetavar d mv)). intros x. apply dmetavar_pre, C. Qed.

Lemma ext_dshortlong_usage d n : Ext pre d -> Ext pre (dshortlong_usage d n).
Proof. apply (ext_keep (fun d => dshortlong_usage d n)). intros x. apply dshortlong_usage_pre, C. Qed.

Lemma ext_dshortlong_item d n : Ext pre d -> Ext pre (dshortlong_item d n).
Proof. apply (ext_keep (fun d => dshortlong_item d n)). intros x. apply dshortlong_item_pre, C. Qed.

Lemma ext_dwrite_item d i : Ext pre d -> Ext pre (dwrite_item d i).
Proof. apply (ext_keep (fun d => dwrite_item d i)). intros x. apply dwrite_item_pre, C. Qed.

(* no text is written directly: any prefix is kept *)
Lemma ext_dbody d h : Ext pre d -> Ext pre (dbody d h).
Proof.
  intros [suf ->]. exists (dbody suf h). destruct h; cbn [dbody]; [|reflexivity].
  unfold dtok, ddoc. rewrite <- !app_assoc. reflexivity.
Qed.

Lemma ext_denv_line d a b e v : Ext pre d -> Ext pre (denv_line d a b e v).
Proof. apply (ext_keep (fun d => denv_line d a b e v)). intros x. apply denv_line_pre, C. Qed.
End Keep.
