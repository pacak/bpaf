(* OrderLaws.v -- position-independence of tokenisation and of the named consumers (C03). *)
From BpafLemmas Require Import Tac Find TokLaws NoLoss.

(* whole occurrences tokenise on their own, so reordering them reorders their token groups *)
Theorem tokens_swap sf sa a b ta tb :
  pre_tokens sf sa a = Some ta -> pre_tokens sf sa b = Some tb ->
  pre_tokens sf sa (a ++ b) = Some (ta ++ tb) /\ pre_tokens sf sa (b ++ a) = Some (tb ++ ta).
Proof. intros Ha Hb. split; apply pre_tokens_app; assumption. Qed.

Theorem tokens_swap_middle sf sa pre a b post tp ta tb tq :
  pre_tokens sf sa pre = Some tp -> pre_tokens sf sa a = Some ta ->
  pre_tokens sf sa b = Some tb -> pre_tokens sf sa post = Some tq ->
  pre_tokens sf sa (pre ++ a ++ b ++ post) = Some (tp ++ ta ++ tb ++ tq) /\
  pre_tokens sf sa (pre ++ b ++ a ++ post) = Some (tp ++ tb ++ ta ++ tq).
Proof.
  intros Hp Ha Hb Hq. split; repeat (apply pre_tokens_app; try assumption).
Qed.

Theorem take_flag_anywhere n s ix a st :
  in_scope s ix = true -> nth_error (items s) ix = Some a -> ist_at s ix = Some st ->
  present st = true -> matches_arg n false a = true -> exists s', take_flag n s = Some s'.
Proof.
  intros Hin Ha Hs Hp Hm.
  destruct (find_item_complete s (fun _ a => matches_arg n false a) ix a st Hin Ha Hs Hp Hm) as (jx & Hj & _).
  unfold take_flag. rewrite Hj. eauto.
Qed.

(* what a flag returns does not depend on where the item stood: its constant *)
Lemma eval_flag_taken env n p a s s2 :
  take_flag n s = Some s2 -> eval_flag env n p a s = (ROk p, s2).
Proof. intros H. unfold eval_flag. rewrite H. reflexivity. Qed.

(* positional consumers skip named items: only Word / PosWord tokens are ever candidates *)
Theorem positional_skips_named s ix strict w s' :
  take_positional_word s = Some (ix, strict, w, s') ->
  (nth_error (items s) ix = Some (Word w) /\ strict = false) \/
  (nth_error (items s) ix = Some (PosWord w) /\ strict = true).
Proof.
  unfold take_positional_word. destruct (find_item s _) as [i|]; [|discriminate].
  destruct (nth_error (items s) i) as [[c a o|l a o|x|x|x]|] eqn:E; try discriminate;
    intros [= <- <- <- <-]; auto.
Qed.
