(* DamerauSafe.v -- C04: the edit distance behind the `did you mean` suggestions never indexes its matrix out of
   bounds.  Model/Message.v transcribes `damerau_levenshtein` (src/meta_youmean.rs) with total accessors (`nth` with a
   default, `update_nth` that ignores a position beyond the end); `d[ix(i, j)]` in the Rust code panics on such a
   position.  Here the same function is written with CHECKED accessors (None = the panic) and shown to return, and to
   agree with the transcription, for all strings: every index the loops compute lies inside the
   (a_len + 1) * (b_len + 1) vector (the row stride is a_len, not a_len + 1 -- cells alias, but stay inside). *)
From Coq Require Import Lia.
From BpafModel Require Import Message.
From BpafLemmas Require Import Ledger.
Import ListNotations.

Definition cget (d : list nat) (k : nat) : option nat := nth_error d k.
Definition cset (k v : nat) (d : list nat) : option (list nat) :=
  if Nat.ltb k (length d) then Some (update_nth k v d) else None.

Fixpoint c_init_i (d : list nat) (i n : nat) : option (list nat) :=
  match n with
  | O => Some d
  | S n' => match cset i i d with Some d' => c_init_i d' (S i) n' | None => None end
  end.

Fixpoint c_init_j (alen : nat) (d : list nat) (j n : nat) : option (list nat) :=
  match n with
  | O => Some d
  | S n' => match cset (alen * j) j d with Some d' => c_init_j alen d' (S j) n' | None => None end
  end.

Fixpoint c_row (alen i : nat) (ca pa : char) (bs0 : list char) (j : nat) (pb : char) (d : list nat)
  : option (list nat * char) :=
  match bs0 with
  | [] => Some (d, pb)
  | cb :: t =>
    let ix (ii jj : nat) := alen * jj + ii in
    let cost := if (ca =? cb)%N then O else 1 in
    match cget d (ix (i - 1) j), cget d (ix i (j - 1)), cget d (ix (i - 1) (j - 1)) with
    | Some x, Some y, Some z =>
      let v := Nat.min (Nat.min (x + 1) (y + 1)) (z + cost) in
      match cset (ix i j) v d with
      | None => None
      | Some d1 =>
        let d2 :=
          if Nat.ltb 1 i && Nat.ltb 1 j && (ca =? pb)%N && (cb =? pa)%N
          then match cget d1 (ix i j), cget d1 (ix (i - 2) (j - 2)) with
               | Some p, Some q => cset (ix i j) (Nat.min p (q + 1)) d1
               | _, _ => None
               end
          else Some d1 in
        match d2 with
        | Some d2' => c_row alen i ca pa t (S j) cb d2'
        | None => None
        end
      end
    | _, _, _ => None
    end
  end.

Fixpoint c_rows (alen : nat) (as0 bs0 : list char) (i : nat) (pa pb : char) (d : list nat) : option (list nat) :=
  match as0 with
  | [] => Some d
  | ca :: t =>
    match c_row alen i ca pa bs0 1 pb d with
    | Some (d', pb') => c_rows alen t bs0 (S i) ca pb' d'
    | None => None
    end
  end.

(* None: an index out of bounds *)
Definition damerau_checked (a b : list char) : option (option nat) :=
  let alen := length a in
  let blen := length b in
  let d0 := repeat O ((alen + 1) * (blen + 1)) in
  match c_init_i d0 O (S alen) with
  | None => None
  | Some d1 =>
    match c_init_j alen d1 O (S blen) with
    | None => None
    | Some d2 =>
      match c_rows alen a b 1 0%N 0%N d2 with
      | None => None
      | Some d3 =>
        match cget d3 (alen * blen + alen) with
        | None => None
        | Some diff => Some (if Nat.leb (Nat.min alen blen) diff then None else Some diff)
        end
      end
    end
  end.

Lemma cget_ok d k : k < length d -> cget d k = Some (dl_get d k).
Proof. intros H. unfold cget, dl_get. apply nth_error_nth'. exact H. Qed.

Lemma cset_ok k v d : k < length d -> cset k v d = Some (update_nth k v d).
Proof. intros H. unfold cset. apply Nat.ltb_lt in H. rewrite H. reflexivity. Qed.

Lemma c_init_i_ok : forall n d i, i + n <= length d ->
  c_init_i d i n = Some (dl_init_i d i n) /\ length (dl_init_i d i n) = length d.
Proof.
  induction n as [|n IH]; intros d i H; cbn [c_init_i dl_init_i]; [split; reflexivity|].
  rewrite cset_ok by lia. destruct (IH (update_nth i i d) (S i)) as [E L]; [rewrite update_nth_length; lia|].
  rewrite E, L, update_nth_length. split; reflexivity.
Qed.

Lemma c_init_j_ok alen : forall n d j, (forall jj, jj < j + n -> alen * jj < length d) ->
  c_init_j alen d j n = Some (dl_init_j alen d j n) /\ length (dl_init_j alen d j n) = length d.
Proof.
  induction n as [|n IH]; intros d j H; cbn [c_init_j dl_init_j]; [split; reflexivity|].
  rewrite cset_ok by (apply H; lia).
  destruct (IH (update_nth (alen * j) j d) (S j)) as [E L]; [intros jj Hj; rewrite update_nth_length; apply H; lia|].
  rewrite E, L, update_nth_length. split; reflexivity.
Qed.

Lemma c_row_ok alen blen i ca pa : i <= alen ->
  forall bs0 j pb d, j + length bs0 <= blen + 1 -> length d = (alen + 1) * (blen + 1) ->
  c_row alen i ca pa bs0 j pb d = Some (dl_row alen i ca pa bs0 j pb d) /\
  length (fst (dl_row alen i ca pa bs0 j pb d)) = length d.
Proof.
  intros Hi2. induction bs0 as [|cb t IH]; intros j pb d Hj2 Hl; cbn [c_row dl_row]; [split; reflexivity|].
  cbn [length] in Hj2.
  assert (B : forall ii jj, ii <= alen -> jj <= blen -> alen * jj + ii < length d).
  { intros ii jj A1 A2. rewrite Hl. nia. }
  assert (Hj : j <= blen) by lia.
  assert (Hi0 : forall k, i - k <= alen) by (intros k; exact (Nat.le_trans _ _ _ (Nat.le_sub_l i k) Hi2)).
  assert (Hj0 : forall k, j - k <= blen) by (intros k; exact (Nat.le_trans _ _ _ (Nat.le_sub_l j k) Hj)).
  rewrite !cget_ok by (apply B; auto).
  rewrite cset_ok by (apply B; auto).
  set (v := Nat.min (Nat.min (dl_get d (alen * j + (i - 1)) + 1) (dl_get d (alen * (j - 1) + i) + 1))
                    (dl_get d (alen * (j - 1) + (i - 1)) + (if (ca =? cb)%N then 0 else 1))).
  set (d1 := update_nth (alen * j + i) v d).
  assert (L1 : length d1 = length d) by apply update_nth_length.
  destruct (Nat.ltb 1 i && Nat.ltb 1 j && (ca =? pb)%N && (cb =? pa)%N).
  - rewrite !cget_ok by (rewrite L1; apply B; auto).
    rewrite cset_ok by (rewrite L1; apply B; auto).
    match goal with |- context [update_nth ?k ?x d1] => set (d2 := update_nth k x d1) end.
    assert (L2 : length d2 = length d) by (unfold d2; rewrite update_nth_length; exact L1).
    destruct (IH (S j) cb d2) as [E L]; [lia|congruence|]. rewrite E, L. split; [reflexivity|exact L2].
  - destruct (IH (S j) cb d1) as [E L]; [lia|congruence|]. rewrite E, L. split; [reflexivity|exact L1].
Qed.

Lemma c_rows_ok alen blen bs0 : length bs0 = blen ->
  forall as0 i pa pb d, i + length as0 <= alen + 1 -> length d = (alen + 1) * (blen + 1) ->
  c_rows alen as0 bs0 i pa pb d = Some (dl_rows alen as0 bs0 i pa pb d) /\
  length (dl_rows alen as0 bs0 i pa pb d) = length d.
Proof.
  intros Hb. induction as0 as [|ca t IH]; intros i pa pb d Hi2 Hl; cbn [c_rows dl_rows]; [split; reflexivity|].
  cbn [length] in Hi2.
  destruct (c_row_ok alen blen i ca pa ltac:(lia) bs0 1 pb d ltac:(lia) Hl) as [E L].
  rewrite E. destruct (dl_row alen i ca pa bs0 1 pb d) as [d' pb'] eqn:R. cbn [fst] in L.
  destruct (IH (S i) ca pb' d') as [E' L']; [lia|congruence|]. rewrite E', L'. split; [reflexivity|exact L].
Qed.

Theorem damerau_in_bounds a b : damerau_checked a b = Some (damerau_levenshtein a b).
Proof.
  unfold damerau_checked, damerau_levenshtein.
  set (alen := length a). set (blen := length b). set (L := (alen + 1) * (blen + 1)).
  assert (L0 : length (repeat 0 L) = L) by apply repeat_length.
  destruct (c_init_i_ok (S alen) (repeat 0 L) 0) as [E1 L1]; [rewrite L0; unfold L; nia|].
  rewrite E1.
  destruct (c_init_j_ok alen (S blen) (dl_init_i (repeat 0 L) 0 (S alen)) 0) as [E2 L2].
  { intros jj Hj. rewrite L1, L0. unfold L. nia. }
  rewrite E2.
  destruct (c_rows_ok alen blen b eq_refl a 1 0%N 0%N (dl_init_j alen (dl_init_i (repeat 0 L) 0 (S alen)) 0 (S blen)))
    as [E3 L3]; [unfold alen; lia|rewrite L2, L1, L0; reflexivity|].
  rewrite E3. rewrite cget_ok; [reflexivity|]. rewrite L3, L2, L1, L0. unfold L. nia.
Qed.
