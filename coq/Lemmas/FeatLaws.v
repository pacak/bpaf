(* FeatLaws.v -- cargo features do not change parsing or monochrome rendering (C20): the model's
   run_inner ignores them; `docgen` changes the splitter, hence the rendering, only on texts that
   hold a fenced code block. *)
From BpafModel Require Import Console Eval.
From BpafLemmas Require Import WidthLaws.
Import ListNotations.

(* parsing: `feat` is a parameter of the model's run_inner_state that its body never consults, so
   the equation holds by computation; all it says is that the model takes no feature into account
   when parsing (that bpaf does not either is what the C20 check compares) *)
Theorem run_inner_features_irrelevant f1 f2 env o name argv :
  run_inner f1 env o name argv = run_inner f2 env o name argv.
Proof. reflexivity. Qed.

Definition fence : str := [nl; nl; tick; tick; tick].

Definition nofence (s : str) : Prop := forall pre suf, s = pre ++ suf -> starts_with fence suf = false.

Lemma nofence_suffix a b : suffix a b -> nofence b -> nofence a.
Proof.
  intros [p ->] H pre suf E. apply (H (p ++ pre) suf). rewrite E. rewrite app_assoc. reflexivity.
Qed.

Lemma split_next_nofence input :
  nofence input -> split_next true CodeNo input = split_next false CodeNo input.
Proof.
  intros Hn. destruct input as [|c0 tail0]; [reflexivity|]. unfold split_next. cbn [andb].
  destruct (N.eqb_spec c0 nl) as [->|_]; [|reflexivity].
  destruct (starts_with four_spaces tail0); [reflexivity|].
  destruct (starts_with [nl; tick; tick; tick] tail0) eqn:Ef; [|reflexivity].
  specialize (Hn [] (nl :: tail0) eq_refl). unfold fence in Hn. cbn [starts_with] in Hn, Ef.
  rewrite N.eqb_refl in Hn. cbn [andb] in Hn. congruence.
Qed.

Theorem split_go_nofence fuel input :
  nofence input -> split_go true fuel CodeNo input = split_go false fuel CodeNo input.
Proof.
  revert input. induction fuel as [|f IH]; intros input Hn; cbn [split_go]; [reflexivity|].
  rewrite (split_next_nofence input Hn).
  destruct (split_next false CodeNo input) as [[[c i] k]|] eqn:E; [|reflexivity].
  destruct (split_next_ok _ _ _ _ _ _ E) as (_ & Hs & Hk). rewrite (Hk eq_refl).
  f_equal. apply IH. exact (nofence_suffix _ _ Hs Hn).
Qed.

Theorem split_docgen_irrelevant s : nofence s -> Console.split true s = Console.split false s.
Proof. intros H. unfold Console.split. apply split_go_nofence. exact H. Qed.

Definition doc_nofence (d : cdoc) : Prop :=
  forall sty s, In (CText sty s) d -> nofence s.

Lemma token_step_docgen full mw ts st t :
  (forall sty s, t = CText sty s -> nofence s) ->
  token_step true full mw ts st t = token_step false full mw ts st t.
Proof.
  intros H. destruct t as [sty s|b|b]; try reflexivity.
  unfold token_step. rewrite (split_docgen_irrelevant s (H sty s eq_refl)). reflexivity.
Qed.

Theorem render_docgen_irrelevant full mw d :
  doc_nofence d -> render_console true full mw d = render_console false full mw d.
Proof.
  intros H. unfold render_console, render_state.
  assert (E : forall st ts, fold_left (token_step true full mw ts) d st = fold_left (token_step false full mw ts) d st).
  { revert H. induction d as [|t d IH]; intros H st ts; cbn; [reflexivity|].
    rewrite token_step_docgen.
    - apply IH. intros sty s Hin. apply (H sty s). right. exact Hin.
    - intros sty s ->. apply (H sty s). left. reflexivity. }
  rewrite E. reflexivity.
Qed.

(* the restriction is needed: a fenced code block is split differently (known finding C20-fenced-code) *)
Theorem split_docgen_refuted : exists s, Console.split true s <> Console.split false s.
Proof.
  exists [97; 10; 10; 96; 96; 96; 10; 120; 32; 121; 10; 96; 96; 96]%N.
  vm_compute. intros H. discriminate H.
Qed.
