(* ConvRefine.v -- C01 on flat levels, as reasoning about lists of live tokens (AbsSim.v carries it to
   real states).  The scan of `denote` tags every live token with its role; on a tagged line each
   field of the compiled level is described once: a named field returns the value of its item and
   removes exactly its occurrences, or it fails or leaves one behind; likewise the positional fields.
   Hence what the grammar accepts with value v, the parser returns as v. *)
From BpafModel Require Import Conv.
From BpafLemmas Require Import Tac Reach Ledger C05Lemmas Exact AbsSim ConvLaws.
From BpafLemmas Require TotalAll.
Import ListNotations.

Definition above (i : nat) (l : lv) : Prop := forall p, In p l -> i < fst p.

Lemma aremove_notin i l : (forall p, In p l -> fst p <> i) -> aremove i l = l.
Proof.
  intros H. unfold aremove. apply filter_all. intros p Hp. apply negb_true_iff. apply Nat.eqb_neq. apply H. exact Hp.
Qed.

Lemma aremove_above i l : above i l -> aremove i l = l.
Proof. intros H. apply aremove_notin. intros p Hp. specialize (H p Hp). lia. Qed.

Lemma aremove_head i a l : above i l -> aremove i ((i, a) :: l) = l.
Proof.
  intros H. unfold aremove. cbn [filter fst]. rewrite Nat.eqb_refl. cbn [negb]. apply (aremove_above i l H).
Qed.

Lemma aremove_skip i j a l : i <> j -> aremove i ((j, a) :: l) = (j, a) :: aremove i l.
Proof.
  intros H. unfold aremove. cbn [filter fst]. assert (E : Nat.eqb j i = false) by (apply Nat.eqb_neq; lia).
  rewrite E. reflexivity.
Qed.

Lemma above_remove i j l : above i l -> above i (aremove j l).
Proof. intros H p Hp. unfold aremove in Hp. apply filter_In in Hp. apply H. apply Hp. Qed.

Lemma above_weaken i j l : i <= j -> above j l -> above i l.
Proof. intros H A p Hp. specialize (A p Hp). lia. Qed.

Lemma afind_head f i a l : f a = true -> afind f ((i, a) :: l) = Some (i, a).
Proof. intros H. unfold afind. cbn. rewrite H. reflexivity. Qed.
Lemma afind_skip f i a l : f a = false -> afind f ((i, a) :: l) = afind f l.
Proof. intros H. unfold afind. cbn. rewrite H. reflexivity. Qed.

Lemma afind_above f i l j b : above i l -> afind f l = Some (j, b) -> i < j.
Proof. intros A H. apply afind_in in H. destruct H as [H _]. apply (A _ H). Qed.

Lemma aget_head i a l : aget i ((i, a) :: l) = Some a.
Proof. unfold aget. cbn. rewrite Nat.eqb_refl. reflexivity. Qed.
Lemma aget_skip i j a l : i <> j -> aget i ((j, a) :: l) = aget i l.
Proof. intros H. unfold aget. cbn. assert (E : Nat.eqb j i = false) by (apply Nat.eqb_neq; lia). rewrite E. reflexivity. Qed.

Lemma flag_head nm pr ab i a l :
  matches_arg nm false a = true -> above i l -> aeval_flag nm pr ab ((i, a) :: l) = (AOk pr, l).
Proof. intros M A. unfold aeval_flag. rewrite (afind_head _ i a l M). rewrite (aremove_head i a l A). reflexivity. Qed.

Lemma flag_skip nm pr ab i a l :
  matches_arg nm false a = false -> above i l ->
  aeval_flag nm pr ab ((i, a) :: l) = (fst (aeval_flag nm pr ab l), (i, a) :: snd (aeval_flag nm pr ab l)).
Proof.
  intros M A. unfold aeval_flag. rewrite (afind_skip _ i a l M).
  destruct (afind (matches_arg nm false) l) as [[j b]|] eqn:F.
  - cbn [fst snd]. rewrite aremove_skip; [reflexivity|]. pose proof (afind_above _ _ _ _ _ A F). lia.
  - destruct ab; reflexivity.
Qed.

Lemma aconvert_snd ty w l : snd (aconvert ty w l) = l.
Proof. unfold aconvert. destruct (convert ty w); reflexivity. Qed.
Lemma aconvert_cons ty w x l : aconvert ty w (x :: l) = (fst (aconvert ty w l), x :: snd (aconvert ty w l)).
Proof. unfold aconvert. destruct (convert ty w); reflexivity. Qed.

Definition is_value (b : arg) : option bytes :=
  match b with Word w | ArgWord w => Some w | _ => None end.

Lemma arg_head nm ty i a b w l :
  matches_arg nm false a = true -> is_value b = Some w -> above (S i) l ->
  aeval_arg nm ty ((i, a) :: (S i, b) :: l) = aconvert ty w l.
Proof.
  intros M V A. unfold aeval_arg. rewrite (afind_head _ i a _ M).
  rewrite aget_skip by lia. rewrite aget_head.
  assert (E : aremove (S i) (aremove i ((i, a) :: (S i, b) :: l)) = l).
  { rewrite aremove_head.
    - apply aremove_head. exact A.
    - intros p [<-|Hp]; cbn; [lia|]. specialize (A p Hp). lia. }
  rewrite E. destruct b; cbn in V; try discriminate; inversion V; subst; reflexivity.
Qed.

Lemma arg_skip nm ty i a l :
  matches_arg nm false a = false -> above i l ->
  aeval_arg nm ty ((i, a) :: l) = (fst (aeval_arg nm ty l), (i, a) :: snd (aeval_arg nm ty l)).
Proof.
  intros M A. unfold aeval_arg. rewrite (afind_skip _ i a l M).
  destruct (afind (matches_arg nm false) l) as [[j b]|] eqn:F; [|reflexivity].
  pose proof (afind_above _ _ _ _ _ A F) as Hj.
  rewrite aget_skip by lia.
  destruct (aget (S j) l) as [[c adj os|n' adj os|w|w|w]|]; try reflexivity.
  - rewrite (aremove_skip j i a l) by lia. rewrite (aremove_skip (S j) i a) by lia. apply aconvert_cons.
  - rewrite (aremove_skip j i a l) by lia. rewrite (aremove_skip (S j) i a) by lia. apply aconvert_cons.
Qed.

Definition word_of (b : arg) : bytes := match b with Word w | ArgWord w | PosWord w => w | _ => [] end.

Lemma pos_head ty i a l :
  is_word a = true -> above i l -> aeval_pos ty ((i, a) :: l) = aconvert ty (word_of a) l.
Proof.
  intros W A. unfold aeval_pos. rewrite (afind_head _ i a l W). rewrite (aremove_head i a l A).
  destruct a; try discriminate; reflexivity.
Qed.

Lemma pos_nil ty : aeval_pos ty [] = (AErr true true, []).
Proof. reflexivity. Qed.

(* `Pops ev l vs l'`: evaluating ev again and again on l yields the values vs, each evaluation
   removing something, and then reports "missing" without consuming on l' *)
Inductive Pops (ev : lv -> ares * lv) : lv -> list val -> lv -> Prop :=
| Pops_nil l : ev l = (AErr true true, l) -> Pops ev l [] l
| Pops_cons l v l1 vs l' :
    ev l = (AOk v, l1) -> length l1 < length l -> Pops ev l1 vs l' -> Pops ev l (v :: vs) l'.

Lemma pops_length ev l vs l' : Pops ev l vs l' -> length vs + length l' <= length l.
Proof. induction 1; cbn; lia. Qed.

Definition len_ok (len : option nat) (l : lv) : Prop := len = None \/ len = Some (length l).

Lemma amany_pops ev l vs l' : Pops ev l vs l' ->
  forall fuel len acc, length vs < fuel -> len_ok len l ->
  amany_loop ev fuel len l acc = (AOk VUnit, rev vs ++ acc, l').
Proof.
  induction 1 as [l E|l v l1 vs l' E Hlt P IH]; intros fuel len acc Hf Hl.
  - destruct fuel as [|f]; [cbn in Hf; lia|]. cbn [amany_loop]. unfold aparse_option. rewrite E.
    cbn [andb]. rewrite Nat.eqb_refl. reflexivity.
  - destruct fuel as [|f]; [cbn in Hf; lia|]. cbn [amany_loop]. unfold aparse_option. rewrite E.
    assert (L : lt_len (length l1) len = true).
    { destruct Hl as [->| ->]; cbn; [reflexivity|apply Nat.ltb_lt; exact Hlt]. }
    rewrite L. rewrite (IH f (Some (length l1)) (v :: acc)); [|cbn in Hf; lia|right; reflexivity].
    cbn [rev]. rewrite <- app_assoc. reflexivity.
Qed.

Lemma acount_pops ev l vs l' : Pops ev l vs l' ->
  forall fuel len cur n last, length vs < fuel -> len_ok len l -> length l <= cur ->
  acount_loop ev fuel len l cur n last =
  (AOk VUnit, n + length vs, match rev vs with v :: _ => Some v | [] => last end, l').
Proof.
  induction 1 as [l E|l v l1 vs l' E Hlt P IH]; intros fuel len cur n last Hf Hl Hc.
  - destruct fuel as [|f]; [cbn in Hf; lia|]. cbn [acount_loop]. unfold aparse_option. rewrite E.
    cbn [andb]. rewrite Nat.eqb_refl. cbn. rewrite Nat.add_0_r. reflexivity.
  - destruct fuel as [|f]; [cbn in Hf; lia|]. cbn [acount_loop]. unfold aparse_option. rewrite E.
    assert (L : lt_len (length l1) len = true).
    { destruct Hl as [->| ->]; cbn; [reflexivity|apply Nat.ltb_lt; exact Hlt]. }
    rewrite L.
    assert (Ne : Nat.eqb cur (length l1) = false) by (apply Nat.eqb_neq; lia). rewrite Ne.
    rewrite (IH f (Some (length l1)) (length l1) (S n) (Some v)); [|cbn in Hf; lia|right; reflexivity|lia].
    cbn [length rev]. f_equal. f_equal; [f_equal; lia|].
    destruct (rev vs) as [|x r]; reflexivity.
Qed.

(* repeated evaluation that may also end in a final error *)
Inductive Run (ev : lv -> ares * lv) : lv -> list val -> bool -> lv -> Prop :=
| Run_missing l : ev l = (AErr true true, l) -> Run ev l [] false l
| Run_error l l' : ev l = (AErr false false, l') -> Run ev l [] true l'
| Run_cons l v l1 vs b l' :
    ev l = (AOk v, l1) -> length l1 < length l -> Run ev l1 vs b l' -> Run ev l (v :: vs) b l'.

Lemma run_skip ev x l vs b l' :
  (forall l0, above (fst x) l0 -> ev (x :: l0) = (fst (ev l0), x :: snd (ev l0))) ->
  (forall l0, incl (snd (ev l0)) l0) ->
  above (fst x) l -> Run ev l vs b l' -> Run ev (x :: l) vs b (x :: l').
Proof.
  intros Hskip Hincl A R. induction R as [l E|l l' E|l v l1 vs b l' E Hlt R IH].
  - apply Run_missing. rewrite (Hskip l A), E. reflexivity.
  - apply Run_error. rewrite (Hskip l A), E. reflexivity.
  - assert (A1 : above (fst x) l1).
    { intros p Hp. apply A. pose proof (Hincl l) as I. rewrite E in I. apply I. exact Hp. }
    eapply Run_cons; [rewrite (Hskip l A), E; reflexivity|cbn; lia|apply IH; exact A1].
Qed.

Lemma run_pops ev l vs l' : Run ev l vs false l' -> Pops ev l vs l'.
Proof.
  intros R. remember false as b eqn:Eb. induction R as [l E|l l' E|l v l1 vs b l' E Hlt R IH]; try discriminate.
  - apply Pops_nil. exact E.
  - eapply Pops_cons; eauto.
Qed.

Lemma pops_run ev l vs l' : Pops ev l vs l' -> Run ev l vs false l'.
Proof. induction 1; [apply Run_missing|eapply Run_cons]; eauto. Qed.

Lemma pops_skip ev x l vs l' :
  (forall l0, above (fst x) l0 -> ev (x :: l0) = (fst (ev l0), x :: snd (ev l0))) ->
  (forall l0, incl (snd (ev l0)) l0) ->
  above (fst x) l -> Pops ev l vs l' -> Pops ev (x :: l) vs (x :: l').
Proof. intros Hskip Hincl A P. apply run_pops, run_skip; auto using pops_run. Qed.

Lemma aremove_incl i l : incl (aremove i l) l.
Proof. intros p Hp. unfold aremove in Hp. apply filter_In in Hp. apply Hp. Qed.

Lemma flag_incl nm pr ab l : incl (snd (aeval_flag nm pr ab l)) l.
Proof.
  unfold aeval_flag. destruct (afind (matches_arg nm false) l) as [[i a]|]; cbn [snd].
  - apply aremove_incl.
  - destruct ab; apply incl_refl.
Qed.

Lemma arg_incl nm ty l : incl (snd (aeval_arg nm ty l)) l.
Proof.
  unfold aeval_arg. destruct (afind (matches_arg nm false) l) as [[i a]|]; [|apply incl_refl].
  destruct (aget (S i) l) as [[c adj os|n' adj os|w|w|w]|]; try apply incl_refl;
    rewrite aconvert_snd; (eapply incl_tran; [apply aremove_incl|apply aremove_incl]).
Qed.

Definition tl3 := list (nat * arg * role).
Definition untag (t : tl3) : lv := map fst t.

Definition keep (k : nat) (x : nat * arg * role) : bool :=
  match snd x with RKey j | RVal j => Nat.leb k j | RWord | RMark => true end.

Fixpoint occs_of (t : tl3) : list (nat * option bytes) :=
  match t with
  | (_, _, RKey k) :: ((_, b, RVal _) :: t') => (k, Some (word_of b)) :: occs_of t'
  | (_, _, RKey k) :: t' => (k, None) :: occs_of t'
  | _ :: t' => occs_of t'
  | [] => []
  end.

Definition words_of (t : tl3) : list bytes :=
  flat_map (fun x => match snd x with RWord => [word_of (snd (fst x))] | _ => [] end) t.

Lemma untag_in t i a : In (i, a) (untag t) -> exists r, In (i, a, r) t.
Proof. unfold untag. intros H. apply in_map_iff in H. destruct H as ([[j b] r] & E & Hin). cbn in E. inversion E; subst. eauto. Qed.

Section Level.
Variable items : list citem.

Definition disjoint_names : Prop :=
  forall a j k itj itk, nth_error items j = Some itj -> nth_error items k = Some itk ->
    matches_arg (item_named itj) false a = true -> matches_arg (item_named itk) false a = true -> j = k.

Hypothesis Hdis : disjoint_names.

Lemma owner_iff k it a :
  nth_error items k = Some it ->
  (matches_arg (item_named it) false a = true <-> find_owner items a 0 = Some (k, it)).
Proof.
  intros Hn. split.
  - intros M. destruct (find_owner_first items a 0 k it Hn M) as (k' & it' & E & _).
    destruct (find_owner_spec items a 0 k' it' E) as (_ & Hn' & M'). rewrite Nat.sub_0_r in Hn'.
    assert (k' = k) by (eapply Hdis; eauto). subst k'. rewrite Hn in Hn'. inversion Hn'; subst. exact E.
  - intros E. apply (find_owner_spec items a 0 k it E).
Qed.

Inductive WF : nat -> tl3 -> Prop :=
| WF_nil lo : WF lo []
| WF_flag lo i a k it t :
    lo <= i -> is_key a = true -> find_owner items a 0 = Some (k, it) -> is_argument it = false ->
    WF (S i) t -> WF lo ((i, a, RKey k) :: t)
| WF_arg lo i a k it b w t :
    lo <= i -> is_key a = true -> find_owner items a 0 = Some (k, it) -> is_argument it = true ->
    is_value b = Some w -> WF (S (S i)) t -> WF lo ((i, a, RKey k) :: (S i, b, RVal k) :: t)
| WF_word lo i a t : lo <= i -> is_word a = true -> WF (S i) t -> WF lo ((i, a, RWord) :: t)
(* a token that belongs to a deeper command level (tagged RMark): no item of this level matches it *)
| WF_foreign lo i a t :
    lo <= i -> (forall it, In it items -> matches_arg (item_named it) false a = false) ->
    WF (S i) t -> WF lo ((i, a, RMark) :: t).

Lemma WF_weaken lo lo' t : lo' <= lo -> WF lo t -> WF lo' t.
Proof.
  intros H W. destruct W; [apply WF_nil|eapply WF_flag|eapply WF_arg|apply WF_word|apply WF_foreign];
    try eassumption; lia.
Qed.

Definition role_fact (t : tl3) (i : nat) (a : arg) (r : role) : Prop :=
  match r with
  | RKey k => is_key a = true /\ exists it, find_owner items a 0 = Some (k, it) /\
              (is_argument it = true -> exists b w, In (S i, b, RVal k) t /\ is_value b = Some w)
  | RVal k => exists j a' it w, i = S j /\ In (j, a', RKey k) t /\ find_owner items a' 0 = Some (k, it) /\
              is_argument it = true /\ is_value a = Some w
  | RWord => is_word a = true
  | RMark => forall it, In it items -> matches_arg (item_named it) false a = false
  end.

Lemma role_fact_cons x t i a r : role_fact t i a r -> role_fact (x :: t) i a r.
Proof.
  destruct r as [k|k| |]; cbn; auto.
  - intros (K & it & Fo & Hv). split; [exact K|]. exists it. split; [exact Fo|].
    intros Ia. destruct (Hv Ia) as (b & w & Hb & Vb). exists b, w. split; [right; exact Hb|exact Vb].
  - intros (j & a' & it & w & E & Hk & H). exists j, a', it, w. split; [exact E|]. split; [right; exact Hk|exact H].
Qed.

Lemma WF_in lo t : WF lo t -> forall i a r, In (i, a, r) t -> lo <= i /\ role_fact t i a r.
Proof.
  induction 1 as [lo|lo i0 a0 k it t Hl Hk Ho Ha W IH|lo i0 a0 k it b0 w t Hl Hk Ho Ha Hv W IH|lo i0 a0 t Hl Hw W IH|lo i0 a0 t Hl Hf W IH];
    intros i a r Hin.
  - contradiction.
  - destruct Hin as [E|Hin]; [inversion E; subst|destruct (IH _ _ _ Hin) as [L F]; split; [lia|apply role_fact_cons, F]].
    split; [exact Hl|]. cbn. split; [exact Hk|]. exists it. split; [exact Ho|]. intros F. congruence.
  - destruct Hin as [E|[E|Hin]]; [inversion E; subst|inversion E; subst|].
    + split; [exact Hl|]. cbn. split; [exact Hk|]. exists it. split; [exact Ho|]. intros _. exists b0, w. split; [right; left; reflexivity|exact Hv].
    + split; [lia|]. exists i0, a0, it, w. split; [reflexivity|]. split; [left; reflexivity|]. auto.
    + destruct (IH _ _ _ Hin) as [L F]. split; [lia|]. apply role_fact_cons, role_fact_cons, F.
  - destruct Hin as [E|Hin]; [inversion E; subst; split; [exact Hl|exact Hw]|].
    destruct (IH _ _ _ Hin) as [L F]. split; [lia|apply role_fact_cons, F].
  - destruct Hin as [E|Hin]; [inversion E; subst; split; [exact Hl|exact Hf]|].
    destruct (IH _ _ _ Hin) as [L F]. split; [lia|apply role_fact_cons, F].
Qed.

Lemma WF_above lo t : WF lo t -> forall p, In p (untag t) -> lo <= fst p.
Proof. intros W [i a] Hp. destruct (untag_in _ _ _ Hp) as [r Hr]. apply (WF_in lo t W i a r Hr). Qed.

Lemma WF_above' lo t : WF (S lo) t -> above lo (untag t).
Proof. intros W p Hp. pose proof (WF_above _ _ W p Hp). lia. Qed.

Lemma WF_filter k lo t : WF lo t -> WF lo (filter (keep k) t).
Proof.
  induction 1 as [lo|lo i a j it t Hl Hk Ho Ha W IH|lo i a j it b w t Hl Hk Ho Ha Hv W IH|lo i a t Hl Hw W IH|lo i a t Hl Hf W IH];
    cbn [filter keep snd].
  - constructor.
  - destruct (Nat.leb k j); [eapply WF_flag; eauto|]. eapply WF_weaken; [|exact IH]. lia.
  - destruct (Nat.leb k j); [eapply WF_arg; eauto|]. eapply WF_weaken; [|exact IH]. lia.
  - apply WF_word; auto.
  - apply WF_foreign; auto.
Qed.

Definition kept (k : nat) (t : tl3) : Prop := forall x, In x t -> keep k x = true.

Lemma kept_filter k t : kept k (filter (keep k) t).
Proof. intros x Hx. apply filter_In in Hx. apply Hx. Qed.

Lemma kept_tail k x t : kept k (x :: t) -> kept k t.
Proof. intros H y Hy. apply H. right. exact Hy. Qed.

Lemma filter_keep_S k t : filter (keep (S k)) (filter (keep k) t) = filter (keep (S k)) t.
Proof.
  induction t as [|x t IH]; cbn; [reflexivity|].
  destruct (keep k x) eqn:K; cbn.
  - destruct (keep (S k) x); rewrite IH; reflexivity.
  - assert (E : keep (S k) x = false).
    { unfold keep in *. destruct (snd x); try discriminate; try reflexivity; apply Nat.leb_gt in K; apply Nat.leb_gt; lia. }
    rewrite E. exact IH.
Qed.

Definition kvals (k : nat) (t : tl3) : list (option bytes) := occ_of k (occs_of t).

Lemma value_not_key b w : is_value b = Some w -> is_key b = false.
Proof. destruct b; cbn; congruence. Qed.
Lemma word_not_key a : is_word a = true -> is_key a = false.
Proof. destruct a; cbn; congruence. Qed.

Lemma occs_flag {lo} i a j t : WF lo t ->
  occs_of ((i, a, RKey j) :: t) = (j, None) :: occs_of t.
Proof.
  intros W. destruct t as [|[[i2 b2] r2] t2]; [reflexivity|]. destruct r2; try reflexivity. inversion W.
Qed.

Section Item.
Variable k : nat.
Variable it : citem.
Hypothesis Hit : nth_error items k = Some it.
Let nm := item_named it.

Lemma key_match a j itj : find_owner items a 0 = Some (j, itj) -> matches_arg nm false a = Nat.eqb j k.
Proof.
  intros E. destruct (Nat.eqb j k) eqn:J.
  - apply Nat.eqb_eq in J. subst j. destruct (find_owner_spec items a 0 k itj E) as (_ & Hn & M).
    rewrite Nat.sub_0_r in Hn. rewrite Hit in Hn. inversion Hn; subst. exact M.
  - destruct (matches_arg nm false a) eqn:M; [|reflexivity].
    apply (proj1 (owner_iff k it a Hit)) in M. rewrite M in E. inversion E; subst. rewrite Nat.eqb_refl in J. discriminate.
Qed.

(* a well-formed line as item k sees it: its own occurrences, and tokens that are not its own --
   those it does not match, they stand before everything that follows, they do not count among its
   values and they stay when its occurrences are filtered away *)
Lemma item_line_ind (P : tl3 -> Prop) :
  P [] ->
  (forall x t, matches_arg nm false (snd (fst x)) = false -> above (fst (fst x)) (untag t) ->
     kvals k (x :: t) = kvals k t -> filter (keep (S k)) (x :: t) = x :: filter (keep (S k)) t ->
     P t -> P (x :: t)) ->
  (forall i a t, is_argument it = false -> matches_arg nm false a = true -> above i (untag t) ->
     kvals k ((i, a, RKey k) :: t) = None :: kvals k t -> P t -> P ((i, a, RKey k) :: t)) ->
  (forall i a b w t, is_argument it = true -> matches_arg nm false a = true -> is_value b = Some w ->
     above (S i) (untag t) -> P t -> P ((i, a, RKey k) :: (S i, b, RVal k) :: t)) ->
  forall lo t, WF lo t -> kept k t -> P t.
Proof.
  intros Hnil Hother Hflag Harg lo t W.
  induction W as [lo|lo i a j itj t Hl Hk Ho Ha W IH|lo i a j itj b w t Hl Hk Ho Ha Hv W IH|lo i a t Hl Hw W IH|lo i a t Hl Hfo W IH];
    intros Kp.
  - exact Hnil.
  - pose proof (key_match a j itj Ho) as M. specialize (IH (kept_tail _ _ _ Kp)).
    destruct (Nat.eqb j k) eqn:J.
    + apply Nat.eqb_eq in J. subst j. destruct (find_owner_in items a k itj Ho) as (Hn & _). rewrite Hit in Hn. inversion Hn; subst itj.
      apply (Hflag i a t Ha M (WF_above' _ _ W)); [|exact IH].
      unfold kvals. rewrite (occs_flag i a k t W). unfold occ_of. cbn [filter fst]. rewrite Nat.eqb_refl. reflexivity.
    + assert (Kj : keep k (i, a, RKey j) = true) by (apply Kp; left; reflexivity). cbn in Kj. apply Nat.leb_le in Kj.
      apply (Hother (i, a, RKey j) t M (WF_above' _ _ W)); [| |exact IH].
      * unfold kvals. rewrite (occs_flag i a j t W). unfold occ_of. cbn [filter fst]. rewrite J. reflexivity.
      * apply Nat.eqb_neq in J. cbn [filter keep snd]. assert (Kf : Nat.leb (S k) j = true) by (apply Nat.leb_le; lia). rewrite Kf. reflexivity.
  - pose proof (key_match a j itj Ho) as M. specialize (IH (fun x Hx => Kp x (or_intror (or_intror Hx)))).
    destruct (Nat.eqb j k) eqn:J.
    + apply Nat.eqb_eq in J. subst j. destruct (find_owner_in items a k itj Ho) as (Hn & _). rewrite Hit in Hn. inversion Hn; subst itj.
      exact (Harg i a b w t Ha M Hv (WF_above' _ _ W) IH).
    + assert (Kj : keep k (i, a, RKey j) = true) by (apply Kp; left; reflexivity). cbn in Kj. apply Nat.leb_le in Kj.
      assert (Kf : Nat.leb (S k) j = true) by (apply Nat.eqb_neq in J; apply Nat.leb_le; lia).
      apply (Hother (i, a, RKey j) ((S i, b, RVal j) :: t) M).
      * intros p [<-|Hp]; cbn; [lia|]. pose proof (WF_above _ _ W p Hp). lia.
      * unfold kvals. cbn [occs_of]. unfold occ_of. cbn [filter fst]. rewrite J. reflexivity.
      * cbn [filter keep snd]. rewrite Kf. reflexivity.
      * apply (Hother (S i, b, RVal j) t); [apply not_key_no_match; eapply value_not_key; eauto|exact (WF_above' _ _ W)|reflexivity| |exact IH].
        cbn [filter keep snd]. rewrite Kf. reflexivity.
  - apply (Hother (i, a, RWord) t); [apply not_key_no_match, word_not_key, Hw|exact (WF_above' _ _ W)|reflexivity|reflexivity|].
    exact (IH (kept_tail _ _ _ Kp)).
  - apply (Hother (i, a, RMark) t); [apply Hfo; eapply nth_error_In; exact Hit|exact (WF_above' _ _ W)|reflexivity|reflexivity|].
    exact (IH (kept_tail _ _ _ Kp)).
Qed.

Lemma flag_pops pr lo t :
  is_argument it = false -> WF lo t -> kept k t ->
  Pops (aeval_flag nm pr None) (untag t) (repeat pr (length (kvals k t))) (untag (filter (keep (S k)) t)).
Proof.
  intros Hna. revert lo t.
  apply (item_line_ind (fun t => Pops (aeval_flag nm pr None) (untag t) (repeat pr (length (kvals k t))) (untag (filter (keep (S k)) t)))).
  - apply Pops_nil. reflexivity.
  - intros [[i a] r] t M A -> -> IH. cbn [untag map fst] in *.
    apply (pops_skip _ (i, a)); [|apply flag_incl|exact A|exact IH]. intros l0 A0. apply flag_skip; [exact M|exact A0].
  - intros i a t _ M A -> IH. cbn [filter keep snd]. assert (Kf : Nat.leb (S k) k = false) by (apply Nat.leb_gt; lia). rewrite Kf.
    cbn [length repeat untag map fst].
    eapply Pops_cons; [apply flag_head; [exact M|exact A]|cbn; lia|exact IH].
  - intros i a b w t Hia. congruence.
Qed.

(* argument items: the occurrences are popped in order until one fails to convert *)
Lemma arg_run ty lo t :
  is_argument it = true -> WF lo t -> kept k t ->
  exists vs b l', Run (aeval_arg nm ty) (untag t) vs b l' /\
    (b = false -> convert_all ty (kvals k t) = Some vs /\ l' = untag (filter (keep (S k)) t)) /\
    (b = true -> convert_all ty (kvals k t) = None).
Proof.
  intros Hia. revert lo t.
  apply (item_line_ind (fun t => exists vs b l', Run (aeval_arg nm ty) (untag t) vs b l' /\
    (b = false -> convert_all ty (kvals k t) = Some vs /\ l' = untag (filter (keep (S k)) t)) /\
    (b = true -> convert_all ty (kvals k t) = None))).
  - exists [], false, []. split; [apply Run_missing; reflexivity|]. split; [intros _; split; reflexivity|discriminate].
  - intros [[i a] r] t M A -> -> (vs & b & l' & R & H1 & H2). exists vs, b, ((i, a) :: l'). cbn [untag map fst] in *. split.
    + apply (run_skip _ (i, a)); [|apply arg_incl|exact A|exact R]. intros l0 A0. apply arg_skip; [exact M|exact A0].
    + split; [|exact H2]. intros Eb. destruct (H1 Eb) as [C ->]. split; [exact C|reflexivity].
  - intros i a t Hna. congruence.
  - intros i a b w t _ M Hv A (vs & bb & l' & R & H1 & H2).
    assert (Hw : word_of b = w) by (destruct b; cbn in Hv; try discriminate; inversion Hv; reflexivity).
    assert (E : kvals k ((i, a, RKey k) :: (S i, b, RVal k) :: t) = Some w :: kvals k t).
    { unfold kvals. cbn [occs_of]. unfold occ_of. cbn [filter fst]. rewrite Nat.eqb_refl. cbn [map snd]. rewrite Hw. reflexivity. }
    assert (Ef : filter (keep (S k)) ((i, a, RKey k) :: (S i, b, RVal k) :: t) = filter (keep (S k)) t).
    { cbn [filter keep snd]. assert (Kf : Nat.leb (S k) k = false) by (apply Nat.leb_gt; lia). rewrite Kf. reflexivity. }
    rewrite E, Ef. cbn [convert_all].
    assert (St : aeval_arg nm ty (untag ((i, a, RKey k) :: (S i, b, RVal k) :: t)) = aconvert ty w (untag t)).
    { cbn [untag map fst]. fold (untag t). apply arg_head; [exact M|exact Hv|exact A]. }
    unfold aconvert in St. destruct (convert ty w) as [v|e].
    + exists (v :: vs), bb, l'. split.
      * apply (Run_cons _ _ v (untag t)); [exact St|unfold untag; cbn [map length]; lia|exact R].
      * split; [intros Eb; destruct (H1 Eb) as [C ->]; rewrite C; split; reflexivity|intros Eb; rewrite (H2 Eb); reflexivity].
    + exists [], true, (untag t). split; [apply Run_error; exact St|]. split; [discriminate|reflexivity].
Qed.
End Item.
End Level.

Definition leftover (nm : named) (l : lv) : Prop :=
  exists x, In x l /\ matches_arg nm false (snd x) = true.

Lemma flag_notmissing_leftover nm pr l r l' : aeval_flag nm pr None l = (r, l') -> r <> AErr true true -> leftover nm l.
Proof.
  unfold aeval_flag. destruct (afind (matches_arg nm false) l) as [[i a]|] eqn:F.
  - intros _ _. apply afind_in in F. destruct F as [Hin M]. exists (i, a). auto.
  - intros H Hn. inversion H; subst. contradiction.
Qed.

Lemma arg_notmissing_leftover nm ty l r l' : aeval_arg nm ty l = (r, l') -> r <> AErr true true -> leftover nm l.
Proof.
  unfold aeval_arg. destruct (afind (matches_arg nm false) l) as [[i a]|] eqn:F.
  - intros _ _. apply afind_in in F. destruct F as [Hin M]. exists (i, a). auto.
  - intros H Hn. inversion H; subst. contradiction.
Qed.

Lemma run_head ev nm l vs b l' :
  (forall l r l1, ev l = (r, l1) -> r <> AErr true true -> leftover nm l) ->
  Run ev l vs b l' ->
  match vs with
  | [] => if b then exists l1, ev l = (AErr false false, l1) else ev l = (AErr true true, l) /\ l' = l
  | v :: vs' => exists l1, ev l = (AOk v, l1) /\
                           if b then leftover nm l1 else match vs' with [] => l' = l1 | _ => leftover nm l1 end
  end.
Proof.
  intros LO R. inversion R as [l0 E|l0 l1 E|l0 v l1 vs' b' lf E Hlt R1]; subst; eauto.
  exists l1. split; [exact E|]. inversion R1; subst; try reflexivity; try (eapply LO; [eassumption|discriminate]).
  destruct b; eapply LO; eauto; discriminate.
Qed.

Lemma aoptional_missing ev l : ev l = (AErr true true, l) -> aoptional ev l = (AOk VNone, l).
Proof. intros E. unfold aoptional, aparse_option. rewrite E. cbn [andb]. rewrite Nat.eqb_refl. reflexivity. Qed.
Lemma aoptional_error ev l l1 : ev l = (AErr false false, l1) -> aoptional ev l = (AErr false false, l1).
Proof. intros E. unfold aoptional, aparse_option. rewrite E. reflexivity. Qed.
Lemma aoptional_ok ev l v l1 : ev l = (AOk v, l1) -> aoptional ev l = (AOk (VSome v), l1).
Proof. intros E. unfold aoptional, aparse_option. rewrite E. reflexivity. Qed.

Lemma afallback_missing ev d l : ev l = (AErr true true, l) -> afallback ev d l = (AOk d, l).
Proof. intros E. unfold afallback. rewrite E. reflexivity. Qed.
Lemma afallback_error ev d l l1 : ev l = (AErr false false, l1) -> afallback ev d l = (AErr false false, l).
Proof. intros E. unfold afallback. rewrite E. reflexivity. Qed.
Lemma afallback_ok ev d l v l1 : ev l = (AOk v, l1) -> afallback ev d l = (AOk v, l1).
Proof. intros E. unfold afallback. rewrite E. reflexivity. Qed.

Lemma many_all ev fuel l vs l' : Pops ev l vs l' -> length l < fuel -> amany fuel ev l = (AOk (VList vs), l').
Proof.
  intros P Hf. unfold amany. rewrite (amany_pops ev l vs l' P fuel None []); [|pose proof (pops_length _ _ _ _ P); lia|left; reflexivity].
  rewrite app_nil_r, rev_involutive. reflexivity.
Qed.

Lemma some_all ev fuel l vs l' : Pops ev l vs l' -> vs <> [] -> length l < fuel -> asome fuel ev l = (AOk (VList vs), l').
Proof.
  intros P Hne Hf. unfold asome. rewrite (amany_pops ev l vs l' P fuel None []); [|pose proof (pops_length _ _ _ _ P); lia|left; reflexivity].
  rewrite app_nil_r. destruct (rev vs) as [|x r] eqn:E.
  - exfalso. apply Hne. rewrite <- (rev_involutive vs), E. reflexivity.
  - rewrite <- E, rev_involutive. reflexivity.
Qed.

Lemma count_all ev fuel l vs l' : Pops ev l vs l' -> length l < fuel ->
  acount fuel ev l = (AOk (VNum (Z.of_nat (length vs))), l').
Proof.
  intros P Hf. unfold acount.
  rewrite (acount_pops ev l vs l' P fuel None (length l) 0 None); [reflexivity|pose proof (pops_length _ _ _ _ P); lia|left; reflexivity|lia].
Qed.

Lemma last_all ev fuel l vs l' : Pops ev l vs l' -> vs <> [] -> length l < fuel ->
  alast fuel ev l = (AOk (last vs VUnit), l').
Proof.
  intros P Hne Hf. unfold alast.
  rewrite (acount_pops ev l vs l' P fuel None (length l) 0 None); [|pose proof (pops_length _ _ _ _ P); lia|left; reflexivity|lia].
  destruct (rev vs) as [|x r] eqn:E.
  - exfalso. apply Hne. rewrite <- (rev_involutive vs), E. reflexivity.
  - assert (Hl : last vs VUnit = x).
    { rewrite <- (rev_involutive vs), E. cbn [rev]. apply last_last. }
    rewrite Hl. reflexivity.
Qed.

Lemma amany_run_err ev l vs l' : Run ev l vs true l' ->
  forall fuel len acc x, len_ok len l -> fst (fst (amany_loop ev fuel len l acc)) <> AOk x.
Proof.
  intros R. remember true as b eqn:Eb. induction R as [l E|l l' E|l v l1 vs b l' E Hlt R IH]; try discriminate; intros fuel len acc x Hl.
  - destruct fuel as [|f]; [cbn; discriminate|]. cbn [amany_loop]. unfold aparse_option. rewrite E. cbn. discriminate.
  - destruct fuel as [|f]; [cbn; discriminate|]. cbn [amany_loop]. unfold aparse_option. rewrite E.
    assert (L : lt_len (length l1) len = true).
    { destruct Hl as [->| ->]; cbn; [reflexivity|apply Nat.ltb_lt; exact Hlt]. }
    rewrite L. apply (IH Eb). right. reflexivity.
Qed.

Lemma acount_run_err ev l vs l' : Run ev l vs true l' ->
  forall fuel len cur k last, len_ok len l -> length l <= cur ->
  forall x, fst (fst (fst (acount_loop ev fuel len l cur k last))) <> AOk x.
Proof.
  intros R. remember true as b eqn:Eb. induction R as [l E|l l' E|l v l1 vs b l' E Hlt R IH]; try discriminate; intros fuel len cur k last Hl Hc x.
  - destruct fuel as [|f]; [cbn; discriminate|]. cbn [acount_loop]. unfold aparse_option. rewrite E. cbn. discriminate.
  - destruct fuel as [|f]; [cbn; discriminate|]. cbn [acount_loop]. unfold aparse_option. rewrite E.
    assert (L : lt_len (length l1) len = true).
    { destruct Hl as [->| ->]; cbn; [reflexivity|apply Nat.ltb_lt; exact Hlt]. }
    rewrite L. assert (Ne : Nat.eqb cur (length l1) = false) by (apply Nat.eqb_neq; lia). rewrite Ne.
    apply (IH Eb); [right; reflexivity|lia].
Qed.

Lemma many_err ev fuel l vs l' : Run ev l vs true l' -> forall x, fst (amany fuel ev l) <> AOk x.
Proof.
  intros R x. unfold amany. pose proof (amany_run_err ev l vs l' R fuel None []) as N.
  destruct (amany_loop ev fuel None l []) as [[r acc] l2]. cbn [fst] in N.
  destruct r as [y|m c|]; try discriminate. exfalso. apply (N y); [left; reflexivity|reflexivity].
Qed.

Lemma some_err ev fuel l vs l' : Run ev l vs true l' -> forall x, fst (asome fuel ev l) <> AOk x.
Proof.
  intros R x. unfold asome. pose proof (amany_run_err ev l vs l' R fuel None []) as N.
  destruct (amany_loop ev fuel None l []) as [[r acc] l2]. cbn [fst] in N.
  destruct r as [y|m c|]; try discriminate. exfalso. apply (N y); [left; reflexivity|reflexivity].
Qed.

Lemma last_err ev fuel l vs l' : Run ev l vs true l' -> forall x, fst (alast fuel ev l) <> AOk x.
Proof.
  intros R x. unfold alast. pose proof (acount_run_err ev l vs l' R fuel None (length l) 0 None) as N.
  destruct (acount_loop ev fuel None l (length l) 0 None) as [[[r k] la] l2]. cbn [fst] in N.
  destruct r as [y|m c|]; try discriminate. exfalso. apply (N (or_introl eq_refl) (le_n _) y). reflexivity.
Qed.

Lemma some_none ev fuel l : ev l = (AErr true true, l) -> 0 < fuel -> forall x, fst (asome fuel ev l) <> AOk x.
Proof.
  intros E Hf x. destruct fuel as [|f]; [lia|]. unfold asome. cbn [amany_loop]. unfold aparse_option. rewrite E.
  cbn [andb]. rewrite Nat.eqb_refl. discriminate.
Qed.

Lemma last_none ev fuel l : ev l = (AErr true true, l) -> 0 < fuel -> forall x, fst (alast fuel ev l) <> AOk x.
Proof.
  intros E Hf x. destruct fuel as [|f]; [lia|]. unfold alast. cbn [acount_loop]. unfold aparse_option. rewrite E.
  cbn [andb]. rewrite Nat.eqb_refl. cbn. rewrite E. discriminate.
Qed.

Lemma flag_absent nm pr ab l :
  aeval_flag nm pr ab l =
  match aeval_flag nm pr None l with
  | (AErr _ _, l') => (match ab with Some a => AOk a | None => AErr true true end, l')
  | x => x
  end.
Proof. unfold aeval_flag. destruct (afind (matches_arg nm false) l) as [[i a]|]; [reflexivity|destruct ab; reflexivity]. Qed.

Lemma repeat_map {A B} (p : B) (os : list A) : map (fun _ => p) os = repeat p (length os).
Proof. induction os; cbn; congruence. Qed.

Section ItemSpec.
Variable items : list citem.
Hypothesis Hdis : disjoint_names items.

Lemma flag_field k it lo t p ab :
  nth_error items k = Some it -> is_argument it = false -> WF items lo t -> kept k t ->
  match kvals k t with
  | [] => aeval_flag (item_named it) p ab (untag t) =
          (match ab with Some a => AOk a | None => AErr true true end, untag (filter (keep (S k)) t))
  | [_] => aeval_flag (item_named it) p ab (untag t) = (AOk p, untag (filter (keep (S k)) t))
  | _ :: _ :: _ => fst (aeval_flag (item_named it) p ab (untag t)) = AOk p /\
                   leftover (item_named it) (snd (aeval_flag (item_named it) p ab (untag t)))
  end.
Proof.
  intros Hit Hna W Kp. pose proof (pops_run _ _ _ _ (flag_pops items Hdis k it Hit p lo t Hna W Kp)) as R.
  pose proof (run_head _ (item_named it) _ _ _ _ (flag_notmissing_leftover (item_named it) p) R) as T.
  rewrite flag_absent. destruct (kvals k t) as [|o [|o2 r]]; cbn [length repeat] in T.
  - destruct T as [-> ->]. reflexivity.
  - destruct T as (l1 & -> & ->). reflexivity.
  - destruct T as (l1 & -> & Lo). split; [reflexivity|exact Lo].
Qed.

(* what a named field does to the line: it returns the value of the item and removes exactly its
   occurrences -- or the item has no value, and then the field fails or leaves an occurrence behind *)
Lemma item_spec fuel k it lo t :
  nth_error items k = Some it -> WF items lo t -> kept k t -> length (untag t) < fuel ->
  match item_value it (kvals k t) with
  | Some v => aeval fuel (compile_item it) (untag t) = (AOk v, untag (filter (keep (S k)) t))
  | None => (forall v, fst (aeval fuel (compile_item it) (untag t)) <> AOk v) \/
            leftover (item_named it) (snd (aeval fuel (compile_item it) (untag t)))
  end.
Proof.
  intros Hit W Kp Hf.
  destruct it as [n|n p a|n p|n|n p|n mv ty ar]; cbn [compile_item item_value item_named aeval].
  - pose proof (flag_field k _ lo t (VBool true) (Some (VBool false)) Hit eq_refl W Kp) as F. cbn [item_named] in F.
    destruct (kvals k t) as [|o [|o2 r]]; [exact F|exact F|right; exact (proj2 F)].
  - pose proof (flag_field k _ lo t p (Some a) Hit eq_refl W Kp) as F. cbn [item_named] in F.
    destruct (kvals k t) as [|o [|o2 r]]; [exact F|exact F|right; exact (proj2 F)].
  - pose proof (flag_field k _ lo t p None Hit eq_refl W Kp) as F. cbn [item_named] in F.
    destruct (kvals k t) as [|o [|o2 r]]; [left; rewrite F; discriminate|exact F|right; exact (proj2 F)].
  - pose proof (flag_pops items Hdis k _ Hit VUnit lo t eq_refl W Kp) as P. cbn [item_named] in P.
    change (fun l : lv => aeval_flag n VUnit None l) with (aeval_flag n VUnit None).
    rewrite (count_all _ fuel _ _ _ P Hf), repeat_length. reflexivity.
  - pose proof (flag_pops items Hdis k _ Hit p lo t eq_refl W Kp) as P. cbn [item_named] in P.
    change (fun l : lv => aeval_flag n p None l) with (aeval_flag n p None).
    rewrite (many_all _ fuel _ _ _ P Hf), repeat_map. reflexivity.
  - destruct (arg_run items Hdis k _ Hit ty lo t eq_refl W Kp) as (vs & b & l' & R & H1 & H2). cbn [item_named] in R.
    pose proof (run_head _ n _ _ _ _ (arg_notmissing_leftover n ty) R) as T.
    assert (Hf0 : 0 < fuel) by lia.
    destruct b.
    + (* a value does not convert *)
      rewrite (H2 eq_refl).
      destruct ar; cbn [aeval]; try change (fun l : lv => aeval_arg n ty l) with (aeval_arg n ty).
      * destruct vs; [destruct T as (l1 & ->); left; discriminate|destruct T as (l1 & -> & Lo); right; exact Lo].
      * destruct vs; [destruct T as (l1 & E); rewrite (aoptional_error _ _ _ E); left; discriminate|].
        destruct T as (l1 & E & Lo). rewrite (aoptional_ok _ _ _ _ E). right. exact Lo.
      * left. exact (many_err _ fuel _ _ _ R).
      * left. exact (some_err _ fuel _ _ _ R).
      * destruct vs; [destruct T as (l1 & E); rewrite (afallback_error _ _ _ _ E); left; discriminate|].
        destruct T as (l1 & E & Lo). rewrite (afallback_ok _ _ _ _ _ E). right. exact Lo.
      * left. exact (last_err _ fuel _ _ _ R).
    + (* every value converts *)
      destruct (H1 eq_refl) as [Cv ->]. rewrite Cv. pose proof (run_pops _ _ _ _ R) as P.
      destruct ar; cbn [aeval]; try change (fun l : lv => aeval_arg n ty l) with (aeval_arg n ty).
      * destruct vs as [|x [|y r]]; [destruct T as [-> _]; left; discriminate|destruct T as (l1 & -> & ->); reflexivity|].
        destruct T as (l1 & -> & Lo). right. exact Lo.
      * destruct vs as [|x [|y r]]; [destruct T as [E ->]; exact (aoptional_missing _ _ E)| |];
          destruct T as (l1 & E & T); rewrite (aoptional_ok _ _ _ _ E); [rewrite T; reflexivity|right; exact T].
      * exact (many_all _ fuel _ _ _ P Hf).
      * destruct vs as [|x r]; [destruct T as [E _]; left; exact (some_none _ fuel _ E Hf0)|].
        exact (some_all _ fuel _ _ _ P ltac:(discriminate) Hf).
      * destruct vs as [|x [|y r]]; [destruct T as [E ->]; exact (afallback_missing _ _ _ E)| |];
          destruct T as (l1 & E & T); rewrite (afallback_ok _ _ _ _ _ E); [rewrite T; reflexivity|right; exact T].
      * destruct vs as [|x r]; [destruct T as [E _]; left; exact (last_none _ fuel _ E Hf0)|].
        rewrite (last_all _ fuel _ _ _ P ltac:(discriminate) Hf). reflexivity.
Qed.

End ItemSpec.

Section Fields.
Variable items : list citem.

Lemma kvals_filter k j lo t : WF items lo t -> k <= j -> kvals j (filter (keep k) t) = kvals j t.
Proof.
  intros W Hj. unfold kvals.
  induction W as [lo|lo i a j' it t Hl Hk Ho Ha W IH|lo i a j' it b w t Hl Hk Ho Ha Hv W IH|lo i a t Hl Hw W IH|lo i a t Hl Hfo W IH].
  - reflexivity.
  - rewrite (occs_flag items i a j' t W). cbn [filter keep snd].
    destruct (Nat.leb k j') eqn:K.
    + rewrite (occs_flag items i a j' _ (WF_filter items k _ _ W)). unfold occ_of in *. cbn [filter fst].
      destruct (Nat.eqb j' j); cbn [map]; rewrite IH; reflexivity.
    + apply Nat.leb_gt in K. unfold occ_of in *. cbn [filter fst].
      assert (E : Nat.eqb j' j = false) by (apply Nat.eqb_neq; lia). rewrite E. exact IH.
  - cbn [filter keep snd]. destruct (Nat.leb k j') eqn:K.
    + cbn [occs_of]. unfold occ_of in *. cbn [filter fst]. destruct (Nat.eqb j' j); cbn [map]; rewrite IH; reflexivity.
    + apply Nat.leb_gt in K. cbn [occs_of]. unfold occ_of in *. cbn [filter fst].
      assert (E : Nat.eqb j' j = false) by (apply Nat.eqb_neq; lia). rewrite E. exact IH.
  - cbn [filter keep snd occs_of]. exact IH.
  - cbn [filter keep snd occs_of]. exact IH.
Qed.

Lemma untag_length t : length (untag t) = length t.
Proof. apply map_length. Qed.

End Fields.

Fixpoint arun (aevs : list (lv -> ares * lv)) (l : lv) : option (list val * lv) :=
  match aevs with
  | [] => Some ([], l)
  | aev :: t =>
    match aev l with
    | (AOk v, l1) => match arun t l1 with Some (vs, l2) => Some (v :: vs, l2) | None => None end
    | _ => None
    end
  end.

Lemma arun_rel (R : lv -> lv -> Prop) (R_refl : forall l, R l l) (R_trans : forall a b c, R a b -> R b c -> R a c) aevs :
  Forall (aclosed R) aevs -> forall l vs lk, arun aevs l = Some (vs, lk) -> R l lk.
Proof.
  induction 1 as [|aev t H Ht IH]; intros l vs lk E; cbn [arun] in E.
  - inversion E; subst. apply R_refl.
  - pose proof (H l) as H1. destruct (aev l) as [r l1]. cbn [snd] in H1. destruct r as [v|m c|]; try discriminate.
    destruct (arun t l1) as [[vs' l2]|] eqn:Er; [|discriminate]. inversion E; subst. eapply R_trans; eauto.
Qed.

(* the field of item k on the line from which the items before it are gone *)
Lemma item_at items (Hdis : disjoint_names items) fuel lo t0 k it :
  WF items lo t0 -> length t0 < fuel -> nth_error items k = Some it ->
  match item_value it (occ_of k (occs_of t0)) with
  | Some v => aeval fuel (compile_item it) (untag (filter (keep k) t0)) = (AOk v, untag (filter (keep (S k)) t0))
  | None => (forall v, fst (aeval fuel (compile_item it) (untag (filter (keep k) t0))) <> AOk v) \/
            leftover (item_named it) (snd (aeval fuel (compile_item it) (untag (filter (keep k) t0))))
  end.
Proof.
  intros W Hf Hk.
  pose proof (item_spec items Hdis fuel k it lo (filter (keep k) t0) Hk (WF_filter items k _ _ W) (kept_filter k t0)) as S.
  rewrite (kvals_filter items k k lo t0 W (le_n k)), (filter_keep_S k t0) in S. apply S.
  rewrite untag_length. pose proof (filter_len_le (keep k) t0). lia.
Qed.

Lemma items_run items (Hdis : disjoint_names items) fuel lo t0 :
  WF items lo t0 -> length t0 < fuel ->
  forall its k vs,
    (forall p it, nth_error its p = Some it -> nth_error items (k + p) = Some it) ->
    items_values its k (occs_of t0) = Some vs ->
    arun (map (aeval fuel) (map compile_item its)) (untag (filter (keep k) t0)) =
    Some (vs, untag (filter (keep (k + length its)) t0)).
Proof.
  intros W Hf. induction its as [|it its IH]; intros k vs Hn Hv.
  - cbn in Hv. inversion Hv; subst. cbn. rewrite Nat.add_0_r. reflexivity.
  - cbn [items_values] in Hv.
    assert (Hk : nth_error items k = Some it) by (rewrite <- (Nat.add_0_r k); apply Hn; reflexivity).
    pose proof (item_at items Hdis fuel lo t0 k it W Hf Hk) as St.
    destruct (item_value it (occ_of k (occs_of t0))) as [v|]; [|discriminate].
    destruct (items_values its (S k) (occs_of t0)) as [vs'|] eqn:Er; [|discriminate].
    inversion Hv; subst vs. cbn [map arun]. rewrite St, (IH (S k) vs').
    + cbn [length]. replace (S k + length its) with (k + S (length its)) by lia. reflexivity.
    + intros p it' Hp. replace (S k + p) with (k + S p) by lia. apply Hn. exact Hp.
    + exact Er.
Qed.

Lemma acon_go_arun aevs rest err : forall l vs lk acc, arun aevs l = Some (vs, lk) ->
  acon_go (aevs ++ rest) l acc err = acon_go rest lk (rev vs ++ acc) err.
Proof.
  induction aevs as [|aev t IH]; intros l vs lk acc E; cbn [arun app acon_go] in *.
  - inversion E; subst. reflexivity.
  - destruct (aev l) as [r l1]. destruct r as [v|m c|]; try discriminate.
    destruct (arun t l1) as [[vs' l2]|] eqn:Er; [|discriminate]. inversion E; subst.
    rewrite (IH _ _ _ (v :: acc) Er). cbn [rev]. rewrite <- app_assoc. reflexivity.
Qed.

Lemma acon_go_err_not_ok evs : forall l acc e v l', acon_go evs l acc (Some e) <> (AOk v, l').
Proof.
  induction evs as [|ev t IH]; intros l acc [m c] v l'; cbn [acon_go]; [discriminate|].
  destruct (ev l) as [r l1]. destruct r; try apply IH. discriminate.
Qed.

Lemma acon_go_arun_inv aevs rest : forall l acc v l', acon_go (aevs ++ rest) l acc None = (AOk v, l') ->
  exists vs lk, arun aevs l = Some (vs, lk) /\ acon_go rest lk (rev vs ++ acc) None = (AOk v, l').
Proof.
  induction aevs as [|aev t IH]; intros l acc v l' E; cbn [arun app acon_go] in *.
  - exists [], l. auto.
  - destruct (aev l) as [r l1]. destruct r as [x|m c|]; [|exfalso; eapply acon_go_err_not_ok; exact E|discriminate].
    destruct (IH l1 (x :: acc) v l' E) as (vs & lk & Ea & Er). exists (x :: vs), lk. rewrite Ea.
    split; [reflexivity|]. cbn [rev]. rewrite <- app_assoc. exact Er.
Qed.

Section Positional.
Variable items : list citem.

Definition all_words (t : tl3) : Prop := forall x, In x t -> snd x = RWord.

Lemma all_words_tail x t : all_words (x :: t) -> all_words t.
Proof. intros H y Hy. apply H. right. exact Hy. Qed.

Lemma word_run ty lo t :
  WF items lo t -> all_words t ->
  exists vs b l', Run (aeval_pos ty) (untag t) vs b l' /\
    (b = false -> conv_words ty (words_of t) = Some vs /\ l' = []) /\
    (b = true -> conv_words ty (words_of t) = None).
Proof.
  intros W. induction W as [lo|lo i a j it t Hl Hk Ho Ha W IH|lo i a j it b w t Hl Hk Ho Ha Hv W IH|lo i a t Hl Hw W IH|lo i a t Hl Hfo W IH];
    intros Aw.
  - exists [], false, []. split; [apply Run_missing; reflexivity|]. split; [intros _; split; reflexivity|discriminate].
  - specialize (Aw _ (or_introl eq_refl)). discriminate.
  - specialize (Aw _ (or_introl eq_refl)). discriminate.
  - destruct (IH (all_words_tail _ _ Aw)) as (vs & b & l' & R & Hb & Hb').
    cbn [untag map fst]. fold (untag t).
    pose proof (pos_head ty i a (untag t) Hw (WF_above' items _ _ W)) as Eh. unfold aconvert in Eh.
    cbn [words_of flat_map snd fst app]. fold (words_of t). cbn [conv_words]. unfold conv_word.
    destruct (convert ty (word_of a)) as [v|e] eqn:Cv.
    + exists (v :: vs), b, l'. split; [eapply Run_cons; [exact Eh|cbn; lia|exact R]|]. split.
      * intros Eb. destruct (Hb Eb) as [Hc El]. rewrite Hc. auto.
      * intros Eb. rewrite (Hb' Eb). reflexivity.
    + exists [], true, (untag t). split; [apply Run_error; exact Eh|]. split; [discriminate|reflexivity].
  - specialize (Aw _ (or_introl eq_refl)). discriminate.
Qed.

Lemma all_words_nil t : all_words t -> words_of t = [] -> t = [].
Proof.
  intros Aw H. destruct t as [|[[i a] r] t]; [reflexivity|].
  pose proof (Aw _ (or_introl eq_refl)) as Hr. cbn in Hr. subst r. cbn in H. discriminate.
Qed.

Lemma all_words_cases lo t : WF items lo t -> all_words t ->
  t = [] \/ exists i a t', t = (i, a, RWord) :: t' /\ is_word a = true /\ WF items (S i) t' /\ all_words t'.
Proof.
  intros W Aw. destruct W as [lo|lo i a j it t Hl Hk Ho Ha W|lo i a j it b w t Hl Hk Ho Ha Hv W|lo i a t Hl Hw W|lo i a t Hl Hfo W];
    [left; reflexivity| | | |]; try (specialize (Aw _ (or_introl eq_refl)); discriminate).
  right. exists i, a, t. split; [reflexivity|]. split; [exact Hw|]. split; [exact W|eapply all_words_tail; exact Aw].
Qed.

Lemma acon_go_fails ev rest l acc : (forall v, fst (ev l) <> AOk v) ->
  forall v l', acon_go (ev :: rest) l acc None <> (AOk v, l').
Proof.
  intros H v l'. cbn [acon_go]. destruct (ev l) as [r l1]. cbn [fst] in H.
  destruct r as [x|m c|]; [destruct (H x eq_refl)|apply acon_go_err_not_ok|discriminate].
Qed.

(* what the positional fields do to a line of words: they return the values of the suffix and leave
   nothing -- or the suffix has no value, and then they fail or leave a word *)
Lemma pos_spec fuel ps : forall lo t acc,
  WF items lo t -> all_words t -> length t < fuel ->
  match pos_values ps (words_of t) with
  | Some pv => acon_go (map (aeval fuel) (map compile_pos ps)) (untag t) acc None = (AOk (VTuple (rev acc ++ pv)), [])
  | None => forall v, acon_go (map (aeval fuel) (map compile_pos ps)) (untag t) acc None <> (AOk v, [])
  end.
Proof.
  induction ps as [|p ps IH]; intros lo t acc W Aw Hf.
  - destruct (all_words_cases lo t W Aw) as [->|(i & a & t' & -> & _)]; cbn.
    + rewrite app_nil_r. reflexivity.
    + intros v. discriminate.
  - cbn [pos_values map].
    assert (Efld : aeval fuel (compile_pos p) =
                   match cp_par p with
                   | QReq => aeval_pos (cp_ty p) | QOpt => aoptional (aeval_pos (cp_ty p))
                   | QMany => amany fuel (aeval_pos (cp_ty p)) | QSome => asome fuel (aeval_pos (cp_ty p))
                   end) by (unfold compile_pos; destruct (cp_par p); reflexivity).
    rewrite Efld. clear Efld.
    (* the rest of the fields on the rest of the line, with one more value *)
    assert (Hrest : forall lo' t' x, WF items lo' t' -> all_words t' -> length t' < fuel ->
              match match pos_values ps (words_of t') with Some vs => Some (x :: vs) | None => None end with
              | Some pv => acon_go (map (aeval fuel) (map compile_pos ps)) (untag t') (x :: acc) None = (AOk (VTuple (rev acc ++ pv)), [])
              | None => forall v, acon_go (map (aeval fuel) (map compile_pos ps)) (untag t') (x :: acc) None <> (AOk v, [])
              end).
    { intros lo' t' x W' Aw' Hf'. specialize (IH lo' t' (x :: acc) W' Aw' Hf').
      destruct (pos_values ps (words_of t')) as [vs|]; [|exact IH]. rewrite IH. cbn [rev]. rewrite <- app_assoc. reflexivity. }
    assert (Hnil : forall x, match match pos_values ps [] with Some vs => Some (x :: vs) | None => None end with
              | Some pv => acon_go (map (aeval fuel) (map compile_pos ps)) [] (x :: acc) None = (AOk (VTuple (rev acc ++ pv)), [])
              | None => forall v, acon_go (map (aeval fuel) (map compile_pos ps)) [] (x :: acc) None <> (AOk v, [])
              end).
    { intros x. apply (Hrest lo [] x (WF_nil items lo)); [intros y []|cbn; lia]. }
    destruct (cp_par p).
    + (* required *)
      destruct (all_words_cases lo t W Aw) as [->|(i & a & t' & -> & Hw & W' & Aw')].
      * cbn [words_of flat_map untag map]. intros v0. apply acon_go_fails. cbn. discriminate.
      * cbn [words_of flat_map snd fst app acon_go untag map]. fold (words_of t'). fold (untag t').
        rewrite (pos_head (cp_ty p) i a (untag t') Hw (WF_above' items _ _ W')). unfold aconvert, conv_word.
        destruct (convert (cp_ty p) (word_of a)) as [v1|e]; [|intros v; apply acon_go_err_not_ok].
        apply (Hrest (S i) t' v1 W' Aw'). cbn in Hf. lia.
    + (* optional *)
      destruct (all_words_cases lo t W Aw) as [->|(i & a & t' & -> & Hw & W' & Aw')].
      * cbn [words_of flat_map acon_go untag map]. rewrite (aoptional_missing _ [] (pos_nil (cp_ty p))). apply Hnil.
      * cbn [words_of flat_map snd fst app acon_go untag map]. fold (words_of t'). fold (untag t').
        pose proof (pos_head (cp_ty p) i a (untag t') Hw (WF_above' items _ _ W')) as Eh. unfold aconvert in Eh. unfold conv_word.
        destruct (convert (cp_ty p) (word_of a)) as [v1|e].
        -- rewrite (aoptional_ok _ _ _ _ Eh). apply (Hrest (S i) t' (VSome v1) W' Aw'). cbn in Hf. lia.
        -- rewrite (aoptional_error _ _ _ Eh). intros v. apply acon_go_err_not_ok.
    + (* many *)
      destruct (word_run (cp_ty p) lo t W Aw) as (vs & b & l1 & R & Hb & Hb'). destruct b.
      * rewrite (Hb' eq_refl). intros v0. apply acon_go_fails. exact (many_err _ fuel _ _ _ R).
      * destruct (Hb eq_refl) as [-> ->]. cbn [acon_go].
        rewrite (many_all _ fuel _ _ _ (run_pops _ _ _ _ R)) by (rewrite untag_length; exact Hf). apply Hnil.
    + (* some *)
      destruct (all_words_cases lo t W Aw) as [->|(i & a & t' & E & Hw & W' & Aw')].
      * cbn [words_of flat_map untag map]. intros v0. apply acon_go_fails. apply some_none; [apply pos_nil|lia].
      * destruct (word_run (cp_ty p) lo t W Aw) as (vs & b & l1 & R & Hb & Hb').
        assert (Ew : exists w0 ws0, words_of t = w0 :: ws0) by (rewrite E; cbn; eauto). destruct Ew as (w0 & ws0 & Ew).
        rewrite Ew. rewrite <- Ew. destruct b.
        -- rewrite (Hb' eq_refl). intros v0. apply acon_go_fails. exact (some_err _ fuel _ _ _ R).
        -- destruct (Hb eq_refl) as [Hc ->]. rewrite Hc. cbn [acon_go].
           assert (Hne : vs <> []).
           { intros ->. rewrite Ew in Hc. cbn in Hc. destruct (conv_word (cp_ty p) w0); [|discriminate].
             destruct (conv_words (cp_ty p) ws0); discriminate. }
           rewrite (some_all _ fuel _ _ _ (run_pops _ _ _ _ R) Hne) by (rewrite untag_length; exact Hf). apply Hnil.
Qed.
End Positional.

Fixpoint tag_from (ix : nat) (ts : list (arg * bool)) (rs : list role) : tl3 :=
  match ts, rs with
  | (a, m) :: ts', r :: rs' => (if m then [] else [(ix, a, r)]) ++ tag_from (S ix) ts' rs'
  | _, _ => []
  end.

Fixpoint live_from (ix : nat) (ts : list (arg * bool)) : lv :=
  match ts with
  | [] => []
  | (a, m) :: r => (if m then [] else [(ix, a)]) ++ live_from (S ix) r
  end.

Section Scan.
Variable items : list citem.
Variable anc : list citem.
Variable tail : ctail.

(* a plain word is attributed only where there is a positional suffix; the `--` item gets no tag *)
Definition role_ok (r : role) : Prop :=
  match r with RKey _ | RVal _ => True | RWord => exists ps, tail = TPos ps | RMark => False end.

Definition scan_good (ix : nat) (ts : list (arg * bool)) (a : attribution) : Prop :=
  let t := tag_from ix ts (at_roles a) in
  WF items ix t /\ occs_of t = at_occ a /\ words_of t = at_words a /\ untag t = live_from ix ts /\
  (forall x, In x t -> role_ok (snd x)).

Definition att (ro : list role) (oo : list (nat * option bytes)) (wo : list bytes) (a : attribution) : attribution :=
  mkAttr (ro ++ at_roles a) (oo ++ at_occ a) (wo ++ at_words a).

Lemma good_nil ix : scan_good ix [] (mkAttr [] [] []).
Proof. unfold scan_good. cbn. repeat split; try constructor. intros x []. Qed.

Lemma good_mark ix x ts a : scan_good (S ix) ts a -> scan_good ix ((x, true) :: ts) (att [RMark] [] [] a).
Proof.
  intros (W & Ho & Hw & Hu & Hr). unfold scan_good. cbn [att at_roles at_occ at_words tag_from app live_from].
  repeat split; auto. eapply WF_weaken; [|exact W]. lia.
Qed.

Lemma good_flag ix x k it ts a :
  is_key x = true -> find_owner items x 0 = Some (k, it) -> is_argument it = false ->
  scan_good (S ix) ts a -> scan_good ix ((x, false) :: ts) (att [RKey k] [(k, None)] [] a).
Proof.
  intros Kx Fo Ia (W & Ho & Hw & Hu & Hr). unfold scan_good. cbn [att at_roles at_occ at_words tag_from app live_from].
  repeat split.
  - eapply WF_flag; eauto.
  - rewrite (occs_flag items ix _ k _ W). rewrite Ho. reflexivity.
  - exact Hw.
  - cbn [untag map fst]. f_equal. exact Hu.
  - intros y [<-|Hy]; [exact I|exact (Hr y Hy)].
Qed.

Lemma good_arg ix x k it b w ts a :
  is_key x = true -> find_owner items x 0 = Some (k, it) -> is_argument it = true -> b = Word w \/ b = ArgWord w ->
  scan_good (S (S ix)) ts a ->
  scan_good ix ((x, false) :: (b, false) :: ts) (att [RKey k; RVal k] [(k, Some w)] [] a).
Proof.
  intros Kx Fo Ia Hb (W & Ho & Hw & Hu & Hr).
  assert (Vb : is_value b = Some w /\ word_of b = w) by (destruct Hb as [-> | ->]; split; reflexivity). destruct Vb as [Vb Wb].
  unfold scan_good. cbn [att at_roles at_occ at_words tag_from app live_from].
  repeat split.
  - eapply WF_arg; eauto.
  - cbn [occs_of]. rewrite Wb, Ho. reflexivity.
  - exact Hw.
  - cbn [untag map fst]. f_equal. f_equal. exact Hu.
  - intros y [<-|[<-|Hy]]; [exact I|exact I|exact (Hr y Hy)].
Qed.

Lemma good_word ix x w ps ts a :
  tail = TPos ps -> x = Word w /\ dashy w = false \/ x = PosWord w ->
  scan_good (S ix) ts a -> scan_good ix ((x, false) :: ts) (att [RWord] [] [w] a).
Proof.
  intros Et Hx (W & Ho & Hw & Hu & Hr).
  assert (Hxw : is_word x = true /\ word_of x = w) by (destruct Hx as [[-> _]| ->]; split; reflexivity).
  destruct Hxw as [Wx Ex].
  unfold scan_good. cbn [att at_roles at_occ at_words tag_from app live_from].
  repeat split.
  - apply WF_word; auto.
  - exact Ho.
  - cbn [words_of flat_map snd fst app]. rewrite Ex. f_equal. exact Hw.
  - cbn [untag map fst]. f_equal. exact Hu.
  - intros y [<-|Hy]; [exists ps; exact Et|exact (Hr y Hy)].
Qed.

Definition stops (r : scan_result) (a : attribution) (stop : list (arg * bool)) : Prop :=
  match r with
  | ScDone a0 => a0 = a /\ stop = []
  | ScCmd a0 sub rest => a0 = a /\ exists w cs, stop = (Word w, false) :: rest /\ tail = TCmds cs /\ find_cmd cs w = Some sub
  | ScReject => exists x rest, stop = (x, false) :: rest /\ rejects items tail x rest
  | ScUnspec => True
  end.

Definition decomp (ix : nat) (ts : list (arg * bool)) (r : scan_result) : Prop :=
  exists pre stop a, ts = pre ++ stop /\ scan_good ix pre a /\ stops r a stop.

Lemma decomp_stop ix ts r : stops r (mkAttr [] [] []) ts -> decomp ix ts r.
Proof. intros H. exists [], ts, (mkAttr [] [] []). split; [reflexivity|]. split; [apply good_nil|exact H]. Qed.

Lemma decomp_cons hd ro oo wo ix ix' ts r :
  (forall pre a, scan_good ix' pre a -> scan_good ix (hd ++ pre) (att ro oo wo a)) ->
  decomp ix' ts r -> decomp ix (hd ++ ts) (att_cons ro oo wo r).
Proof.
  intros Hg (pre & stop & a & -> & G & St). exists (hd ++ pre), stop, (att ro oo wo a).
  split; [apply app_assoc|]. split; [apply Hg; exact G|].
  destruct r as [a0|a0 sub rest| |]; cbn [att_cons stops] in *.
  - destruct St as [-> ->]. auto.
  - destruct St as [-> H]. auto.
  - exact St.
  - exact I.
Qed.

(* the scan attributes a prefix of the vector token by token, and then stops *)
Lemma scan_decomp ts : forall ix, decomp ix ts (scan items anc tail ts).
Proof.
  apply scan_cases; clear ts.
  - intros ix. apply decomp_stop. split; reflexivity.
  - intros x rest IH ix. apply (decomp_cons [(x, true)] _ _ _ ix (S ix)); [intros pre a; apply good_mark|apply IH].
  - intros x k it rest Kx _ Fo Ia IH ix.
    apply (decomp_cons [(x, false)] _ _ _ ix (S ix)); [intros pre a; eapply good_flag; eauto|apply IH].
  - intros x k it b w rest Kx _ Fo Ia Hb IH ix.
    apply (decomp_cons [(x, false); (b, false)] _ _ _ ix (S (S ix))); [intros pre a; eapply good_arg; eauto|apply IH].
  - intros x w ps rest Et Hx IH ix.
    apply (decomp_cons [(x, false)] _ _ _ ix (S ix)); [intros pre a; eapply good_word; eauto|apply IH].
  - intros w cs sub rest Et Fc ix. apply decomp_stop. split; [reflexivity|]. exists w, cs. auto.
  - intros x rest Hr ix. apply decomp_stop. unfold rej. destruct (unspec_later _ _ _ _ _); cbn; eauto.
  - intros ts ix. apply decomp_stop. exact I.
Qed.

Lemma scan_wf ts ix a : scan items anc tail ts = ScDone a -> scan_good ix ts a.
Proof.
  intros H. destruct (scan_decomp ts ix) as (pre & stop & a' & -> & G & St). rewrite H in St.
  destruct St as [-> ->]. rewrite app_nil_r. exact G.
Qed.

Lemma scan_cmd_decomp ts ix a sub rest : scan items anc tail ts = ScCmd a sub rest ->
  exists pre w cs, ts = pre ++ (Word w, false) :: rest /\ tail = TCmds cs /\ find_cmd cs w = Some sub /\ scan_good ix pre a.
Proof.
  intros H. destruct (scan_decomp ts ix) as (pre & stop & a' & -> & G & St). rewrite H in St.
  destruct St as (-> & w & cs & -> & Et & Fc). exists pre, w, cs. auto.
Qed.

Lemma scan_reject_decomp ts ix : scan items anc tail ts = ScReject ->
  exists pre x rest a, ts = pre ++ (x, false) :: rest /\ scan_good ix pre a /\ rejects items tail x rest.
Proof.
  intros H. destruct (scan_decomp ts ix) as (pre & stop & a' & -> & G & St). rewrite H in St.
  destruct St as (x & rest & -> & Hr). exists pre, x, rest, a'. auto.
Qed.

Lemma scan_not_cmd ts a sub rest : (forall cs, tail <> TCmds cs) -> scan items anc tail ts <> ScCmd a sub rest.
Proof. intros Ht H. destruct (scan_cmd_decomp ts 0 a sub rest H) as (_ & _ & cs & _ & Et & _). exact (Ht cs Et). Qed.

Lemma role_ok_not_mark r : role_ok r -> r <> RMark.
Proof. intros H ->. exact H. Qed.

Lemma role_ok_named r : (forall ps, tail <> TPos ps) -> role_ok r -> exists j, r = RKey j \/ r = RVal j.
Proof. intros Ht H. destruct r as [j|j| |]; eauto; [destruct H as [ps E]; destruct (Ht ps E)|destruct H]. Qed.
End Scan.

Lemma view_mark its : forall ix sts mk,
  length sts = length its ->
  (forall p st, nth_error sts p = Some st ->
                present st = negb (match mk with Some m => Nat.eqb m (ix + p) | None => false end)) ->
  view_from ix its sts = live_from ix (mark_go mk its ix).
Proof.
  induction its as [|a t IH]; intros ix [|st sts] mk Hl Hp; cbn in Hl; try discriminate; [reflexivity|].
  cbn [view_from mark_go live_from].
  pose proof (Hp 0 st eq_refl) as H0. rewrite Nat.add_0_r in H0. rewrite H0.
  destruct (match mk with Some m => Nat.eqb m ix | None => false end); cbn [negb app]; f_equal;
    (apply IH; [lia|intros p st' Hn; specialize (Hp (S p) st' Hn); replace (S ix + p) with (ix + S p) by lia; exact Hp]).
Qed.

Lemma nth_error_Some_lt {A} (l : list A) n x : nth_error l n = Some x -> n < length l.
Proof. intros H. apply nth_error_Some. congruence. Qed.

Lemma construct_amb sf sa name argv :
  snd (construct sf sa name argv) = t_ambiguity (tokenize sf sa argv).
Proof. unfold construct. destruct (t_marker (tokenize sf sa argv)); reflexivity. Qed.

(* the `remaining` field follows from exactness (Exact.v) *)
Lemma sim_intro n s l :
  length (items s) = n -> length (ist s) = n -> sc_start s <= n -> sc_end s = n -> view s = l -> exact s -> Sim n s l.
Proof.
  intros Hi Hs H0 He Hv Hx. constructor; auto. unfold exact in Hx. rewrite Hx, He, <- Hi, <- Hv.
  apply count_present_view; lia.
Qed.

Lemma construct_sim sf sa name argv :
  let t := tokenize sf sa argv in
  Sim (length (t_items t)) (fst (construct sf sa name argv)) (live_from 0 (mark_tokens t)).
Proof.
  cbn zeta. destruct (TotalAll.construct_G sf sa name argv) as (_ & _ & Hx). revert Hx.
  unfold construct, mark_tokens. set (t := tokenize sf sa argv).
  pose proof (tok_go_marker sf sa argv false [] None (fun m E => ltac:(discriminate))) as Hmk.
  fold (tokenize sf sa argv) in Hmk. fold t in Hmk.
  destruct (t_marker t) as [m|] eqn:Hm; cbn [fst]; intros Hx; apply sim_intro; cbn; auto; try lia.
  - rewrite update_nth_length, repeat_length. reflexivity.
  - specialize (Hmk m eq_refl). unfold view. cbn. apply view_mark.
    + rewrite update_nth_length, repeat_length. reflexivity.
    + intros p st Hn. cbn [Nat.add]. destruct (Nat.eqb m p) eqn:E.
      * apply Nat.eqb_eq in E. subst p. rewrite update_nth_same in Hn by (rewrite repeat_length; exact Hmk).
        inversion Hn; subst. reflexivity.
      * apply Nat.eqb_neq in E. rewrite update_nth_other in Hn by lia.
        assert (Hp : p < length (t_items t)).
        { apply nth_error_Some_lt in Hn. rewrite repeat_length in Hn. exact Hn. }
        rewrite nth_error_repeat in Hn by exact Hp. inversion Hn; subst. reflexivity.
  - apply repeat_length.
  - unfold view. cbn. apply view_mark.
    + apply repeat_length.
    + intros p st Hn. assert (Hp : p < length (t_items t)).
      { apply nth_error_Some_lt in Hn. rewrite repeat_length in Hn. exact Hn. }
      rewrite nth_error_repeat in Hn by exact Hp. inversion Hn; subst. reflexivity.
Qed.

Lemma WF_roles_lt items lo t : WF items lo t ->
  forall x j, In x t -> (snd x = RKey j \/ snd x = RVal j) -> j < length items.
Proof.
  intros W [[i a] r] j Hx Hr. destruct (WF_in items lo t W i a r Hx) as [_ F]. cbn in Hr.
  destruct Hr as [-> | ->]; cbn in F.
  - destruct F as (_ & it & Fo & _). apply (nth_error_Some_lt _ _ _ (proj1 (find_owner_in items a j it Fo))).
  - destruct F as (_ & a' & it & _ & _ & _ & Fo & _). apply (nth_error_Some_lt _ _ _ (proj1 (find_owner_in items a' j it Fo))).
Qed.

Definition no_foreign (t : tl3) : Prop := forall x, In x t -> snd x <> RMark.

Lemma filter_all_words items lo t : WF items lo t -> no_foreign t -> all_words (filter (keep (length items)) t).
Proof.
  intros W Nf x Hx. apply filter_In in Hx. destruct Hx as [Hin Hk]. unfold keep in Hk.
  destruct (snd x) as [j|j| |] eqn:E; try reflexivity.
  - apply Nat.leb_le in Hk. pose proof (WF_roles_lt items lo t W x j Hin (or_introl E)). lia.
  - apply Nat.leb_le in Hk. pose proof (WF_roles_lt items lo t W x j Hin (or_intror E)). lia.
  - exfalso. apply (Nf x Hin). exact E.
Qed.

Lemma words_filter k t : words_of (filter (keep k) t) = words_of t.
Proof.
  induction t as [|x t IH]; [reflexivity|].
  cbn [filter]. unfold keep at 1. destruct (snd x) as [j|j| |] eqn:E.
  - destruct (Nat.leb k j); cbn [words_of flat_map]; rewrite E; cbn [app]; apply IH.
  - destruct (Nat.leb k j); cbn [words_of flat_map]; rewrite E; cbn [app]; apply IH.
  - cbn [words_of flat_map]. rewrite E. f_equal. apply IH.
  - cbn [words_of flat_map]. rewrite E. cbn [app]. apply IH.
Qed.

Lemma filter_keep_0 t : filter (keep 0) t = t.
Proof. apply filter_all. intros x Hx. unfold keep. destruct (snd x); reflexivity. Qed.

Lemma aevals_plist fuel l : aevals fuel (plist_of l) = map (aeval fuel) l.
Proof. induction l as [|p t IH]; cbn; [reflexivity|]. rewrite IH. reflexivity. Qed.

Lemma lflatp_plist l : forallb flatp l = true -> lflatp (plist_of l) = true.
Proof. induction l as [|p t IH]; cbn; [reflexivity|]. intros H. apply andb_prop in H. destruct H as [H1 H2]. rewrite H1. auto. Qed.

Lemma flatp_item it : named_ok (item_named it) = true -> flatp (compile_item it) = true.
Proof.
  intros H. destruct it as [n|n p a|n p|n|n p|n mv ty ar]; cbn in *; try exact H; try (rewrite H; reflexivity).
  destruct ar; cbn; rewrite H; reflexivity.
Qed.

Lemma flatp_pos p : flatp (compile_pos p) = true.
Proof. unfold compile_pos. destruct (cp_par p); reflexivity. Qed.

(* the conventional flat level: names are unique, every item has a name and no environment
   variable, and there are at least two fields (construct! of one field is the field itself) *)
Definition flat_ok (items : list citem) (tail : ctail) : Prop :=
  disjoint_names items /\
  Forall (fun it => named_ok (item_named it) = true) items /\
  match tail with
  | TNone => 2 <= length items
  | TPos ps => 2 <= length items + length ps
  | TCmds _ => False
  end.

Definition tail_fields (tail : ctail) : list parser :=
  match tail with TPos ps => map compile_pos ps | _ => [] end.

Lemma compile_flat items tail : flat_ok items tail ->
  compile (Level items tail) = PCon (plist_of (map compile_item items ++ tail_fields tail)) /\
  flatp (compile (Level items tail)) = true.
Proof.
  intros (Hd & Hn & Hl).
  assert (E : compile (Level items tail) = PCon (plist_of (map compile_item items ++ tail_fields tail))).
  { cbn [compile]. destruct tail; try reflexivity. contradiction. }
  split; [exact E|]. rewrite E. cbn [flatp].
  assert (Hf : forallb flatp (map compile_item items ++ tail_fields tail) = true).
  { rewrite forallb_app. apply andb_true_intro. split.
    - rewrite forallb_forall. intros p Hp. apply in_map_iff in Hp. destruct Hp as (it & <- & Hin).
      apply flatp_item. rewrite Forall_forall in Hn. apply Hn. exact Hin.
    - destruct tail; cbn; try reflexivity. rewrite forallb_forall. intros p Hp. apply in_map_iff in Hp.
      destruct Hp as (q & <- & _). apply flatp_pos. }
  pose proof (lflatp_plist _ Hf) as Hlf.
  assert (Hlen : 2 <= length (map compile_item items ++ tail_fields tail)).
  { rewrite app_length, map_length. destruct tail; cbn; rewrite ?map_length; lia. }
  destruct (map compile_item items ++ tail_fields tail) as [|p1 [|p2 r]]; cbn in Hlen; try lia.
  cbn [plist_of] in *. exact Hlf.
Qed.

Lemma mark_go_length mk its : forall ix, length (mark_go mk its ix) = length its.
Proof. induction its as [|a t IH]; intros ix; cbn; [reflexivity|]. rewrite IH. reflexivity. Qed.

Lemma live_from_le ts : forall ix, length (live_from ix ts) <= length ts.
Proof. induction ts as [|[a m] r IH]; intros ix; cbn; [lia|]. rewrite app_length. specialize (IH (S ix)). destruct m; cbn; lia. Qed.

(* once the named fields are done, the words are what is left of a scanned line *)
Lemma words_left items tail ix ts a : scan_good items tail ix ts a ->
  let tw := filter (keep (length items)) (tag_from ix ts (at_roles a)) in
  WF items ix tw /\ all_words tw /\ words_of tw = at_words a.
Proof.
  intros (W & _ & Hw & _ & Hnf). split; [apply WF_filter, W|]. split; [|rewrite words_filter; exact Hw].
  eapply filter_all_words; [exact W|]. intros x Hx. exact (role_ok_not_mark tail _ (Hnf x Hx)).
Qed.

Lemma level_eval_flat env n items tail anc ts ix s v f :
  flat_ok items tail -> Sim n s (live_from ix ts) -> length ts <= n ->
  denote_level (S f) (Level items tail) anc ts = Accept v ->
  exists s', eval env (compile (Level items tail)) s = (ROk v, s') /\ Sim n s' [].
Proof.
  intros Hok S0 Hlen Hd. pose proof Hok as (Hdis & Hnames & Hl2).
  destruct (compile_flat items tail Hok) as [Ec Hflat].
  cbn [denote_level] in Hd.
  assert (Hnc : forall cs, tail <> TCmds cs) by (intros cs ->; contradiction).
  destruct (scan items anc tail ts) as [a|a sub rest| |] eqn:Sc; try discriminate;
    [|exfalso; exact (scan_not_cmd items anc tail ts a sub rest Hnc Sc)].
  destruct (items_values items 0 (at_occ a)) as [vs|] eqn:Ev; [|discriminate].
  destruct (scan_wf items anc tail ts ix a Sc) as (W & Ho & Hw & Hu & Hnf).
  set (t0 := tag_from ix ts (at_roles a)) in *.
  assert (Hlt0 : length t0 < S (S n)).
  { rewrite <- (untag_length t0), Hu. pose proof (live_from_le ts ix) as L. lia. }
  assert (Ha : aeval (S (S n)) (compile (Level items tail)) (untag t0) = (AOk v, [])).
  { rewrite Ec. cbn [aeval]. rewrite aevals_plist, map_app.
    rewrite <- (filter_keep_0 t0) at 1.
    rewrite (acon_go_arun _ _ None _ _ _ [] (items_run items Hdis (S (S n)) ix t0 W Hlt0 items 0 vs (fun p it H => H) ltac:(rewrite Ho; exact Ev))).
    cbn [Nat.add]. rewrite app_nil_r.
    destruct (words_left items tail ix ts a (scan_wf items anc tail ts ix a Sc)) as (Ww & Aw & Hww).
    cbn zeta in Ww, Aw, Hww. fold t0 in Ww, Aw, Hww. set (tw := filter (keep (length items)) t0) in *.
    destruct tail as [|ps|cs]; [| |contradiction].
    - cbn [tail_fields map acon_go]. destruct (at_words a) eqn:Eaw; [|discriminate].
      rewrite (all_words_nil tw Aw Hww). inversion Hd; subst. rewrite rev_involutive. reflexivity.
    - cbn [tail_fields]. destruct (pos_values ps (at_words a)) as [pv|] eqn:Ep; [|discriminate].
      inversion Hd; subst v.
      assert (Hlw : length tw < S (S n)) by (unfold tw; pose proof (filter_len_le (keep (length items)) t0); lia).
      pose proof (pos_spec items (S (S n)) ps ix tw (rev vs) Ww Aw Hlw) as Sp. rewrite Hww, Ep in Sp.
      rewrite Sp, rev_involutive. reflexivity. }
  rewrite Hu in Ha.
  destruct (eval_sim env n (compile (Level items tail)) Hflat s _ S0) as [R S1].
  rewrite Ha in R, S1. cbn [fst snd] in R, S1.
  destruct (eval env (compile (Level items tail)) s) as [r s1]. cbn [fst snd] in R, S1.
  destruct r as [v'|e|w|]; cbn in R; try contradiction. subst v'. eauto.
Qed.

Lemma mark_tokens_length t : length (mark_tokens t) = length (t_items t).
Proof. apply mark_go_length. Qed.

Lemma run_inner_conv feat env l argv sf sa :
  short_tables (compile_options l) = (sf, sa) ->
  t_ambiguity (tokenize sf sa argv) = None ->
  exists s0, Sim (length (t_items (tokenize sf sa argv))) s0 (live_from 0 (mark_tokens (tokenize sf sa argv))) /\
    run_inner feat env (compile_options l) None argv =
    outcome_of (fst (run_sub_body env default_info (meta_of (compile l)) s0 (eval env (compile l) s0))).
Proof.
  intros Est Ea. unfold run_inner, run_inner_state, initial_state. rewrite Est.
  pose proof (construct_sim sf sa None argv) as S0. pose proof (construct_amb sf sa None argv) as Hamb.
  destruct (construct sf sa None argv) as [s0 amb]. cbn [fst snd] in *. rewrite Hamb, Ea.
  exists s0. split; [exact S0|reflexivity].
Qed.

Lemma run_inner_ok feat env l argv sf sa v :
  short_tables (compile_options l) = (sf, sa) ->
  t_ambiguity (tokenize sf sa argv) = None ->
  run_inner feat env (compile_options l) None argv = OutOk v ->
  exists s0 s1, Sim (length (t_items (tokenize sf sa argv))) s0 (live_from 0 (mark_tokens (tokenize sf sa argv))) /\
    eval env (compile l) s0 = (ROk v, s1) /\ first_item_ix s1 = None.
Proof.
  intros Est Ea Hr. destruct (run_inner_conv feat env l argv sf sa Est Ea) as (s0 & S0 & E). rewrite E in Hr.
  rewrite <- run_sub_eq in Hr. destruct (run_sub env (Options (compile l) default_info) s0) as [r s1] eqn:Er.
  destruct r as [v'|[]| |]; try discriminate. inversion Hr; subst v'. apply run_sub_ok in Er. eauto.
Qed.

Lemma first_item_nil n s : Sim n s [] -> first_item_ix s = None.
Proof. intros HS. unfold first_item_ix. rewrite (find_item_view n s [] (fun _ => true) HS). reflexivity. Qed.

Lemma first_item_none n s l : Sim n s l -> first_item_ix s = None -> l = [].
Proof.
  intros HS H. unfold first_item_ix in H. rewrite (find_item_view n s l (fun _ => true) HS) in H.
  destruct l as [|[i x] l]; [reflexivity|discriminate].
Qed.

Lemma run_sub_accepts env inf m s n s' v : Sim n s' [] ->
  run_sub_body env inf m s (ROk v, s') = (SOk v, s').
Proof. intros HS. unfold run_sub_body. cbn [andb]. rewrite (first_item_nil n s' HS). reflexivity. Qed.

Lemma accept_of_level feat env l argv v :
  (forall n f ts s, Sim n s (live_from 0 ts) -> length ts <= n -> denote_level f l [] ts = Accept v ->
                    exists s', eval env (compile l) s = (ROk v, s') /\ Sim n s' []) ->
  denote l argv = Accept v -> run_inner feat env (compile_options l) None argv = OutOk v.
Proof.
  intros Hl Hd. unfold denote in Hd. destruct (short_tables (compile_options l)) as [sf sa] eqn:Est.
  destruct (t_ambiguity (tokenize sf sa argv)) eqn:Ea; [discriminate|].
  destruct (run_inner_conv feat env l argv sf sa Est Ea) as (s0 & S0 & ->).
  destruct (Hl _ _ _ s0 S0 (Nat.eq_le_incl _ _ (mark_tokens_length _)) Hd) as (s1 & -> & S1).
  rewrite (run_sub_accepts env _ _ s0 _ s1 v S1). reflexivity.
Qed.

(* C01, sentences: what the declared grammar accepts with value v, the parser returns as v *)
Theorem denote_accept_flat feat env items tail argv v :
  flat_ok items tail ->
  denote (Level items tail) argv = Accept v ->
  run_inner feat env (compile_options (Level items tail)) None argv = OutOk v.
Proof.
  intros Hok. apply accept_of_level. intros n [|f] ts s S0 Hlen Hd; [discriminate|].
  exact (level_eval_flat env n items tail [] ts 0 s v f Hok S0 Hlen Hd).
Qed.

Lemma mem_N_in c l : mem_N c l = true -> exists d, In d l /\ (c =? d)%N = true.
Proof. unfold mem_N. intros H. apply existsb_exists in H. destruct H as (d & Hd & E). eauto. Qed.

Lemma share_match a b x :
  matches_arg a false x = true -> matches_arg b false x = true -> share a b = true.
Proof.
  unfold share. destruct x as [c adj os|l adj os|w|w|w]; cbn; try discriminate; rewrite !andb_true_r.
  - intros Ha Hb. apply orb_true_intro. left. unfold mem_N in Ha. apply existsb_exists in Ha. destruct Ha as (d & Hd & E).
    apply existsb_exists. exists d. split; [exact Hd|]. apply N.eqb_eq in E. subst d. exact Hb.
  - intros Ha Hb. apply orb_true_intro. right. unfold mem_bytes in Ha. apply existsb_exists in Ha. destruct Ha as (d & Hd & E).
    apply existsb_exists. exists d. split; [exact Hd|].
    apply beqb_eq in E. subst d. exact Hb.
Qed.

Lemma share_sym a b : share a b = true -> share b a = true.
Proof.
  unfold share. intros H. apply orb_prop in H. apply orb_true_intro. destruct H as [H|H]; [left|right].
  - apply existsb_exists in H. destruct H as (c & Hc & M). apply mem_N_in in M. destruct M as (d & Hd & E).
    apply N.eqb_eq in E. subst d. apply existsb_exists. exists c. split; [exact Hd|].
    unfold mem_N. apply existsb_exists. exists c. split; [exact Hc|apply N.eqb_refl].
  - apply existsb_exists in H. destruct H as (l & Hl & M). unfold mem_bytes in M. apply existsb_exists in M.
    destruct M as (d & Hd & E).
    apply beqb_eq in E. subst d. apply existsb_exists. exists l. split; [exact Hd|]. unfold mem_bytes. apply existsb_exists. exists l.
    split; [exact Hl|apply beqb_refl].
Qed.

Lemma disjointb_sound items : disjointb items = true -> disjoint_names items.
Proof.
  induction items as [|x t IH]; intros H a j k itj itk Hj Hk Mj Mk.
  - destruct j; discriminate.
  - cbn [disjointb] in H. apply andb_prop in H. destruct H as [Hx Ht].
    rewrite forallb_forall in Hx.
    destruct j as [|j]; destruct k as [|k]; cbn in Hj, Hk.
    + reflexivity.
    + inversion Hj; subst itj. apply nth_error_In in Hk. specialize (Hx _ Hk).
      rewrite (share_match _ _ a Mj Mk) in Hx. discriminate.
    + inversion Hk; subst itk. apply nth_error_In in Hj. specialize (Hx _ Hj).
      rewrite (share_sym _ _ (share_match _ _ a Mj Mk)) in Hx. discriminate.
    + f_equal. eapply (IH Ht a j k); eauto.
Qed.

Lemma flat_okb_sound items tail : flat_okb items tail = true -> flat_ok items tail.
Proof.
  unfold flat_okb, flat_ok. intros H. apply andb_prop in H. destruct H as [H H3]. apply andb_prop in H. destruct H as [H1 H2].
  split; [apply disjointb_sound; exact H1|]. split.
  - apply Forall_forall. rewrite forallb_forall in H2. exact H2.
  - destruct tail; try discriminate; apply Nat.leb_le in H3; exact H3.
Qed.
