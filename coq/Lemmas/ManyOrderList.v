(* ManyOrderList.v -- C07, "wrapped in many the collected values follow command-line order", for a repeated
   choice between two required flags.  One step: the choice takes the leftmost available occurrence of either flag.
   The repetition: the rounds consume positions in strictly increasing order, every collected value is the value of
   the flag whose consumer took that round's item, and the consumption log (ghost) records exactly these rounds.  So the returned list, read from its head, walks the line
   from left to right. *)
From Coq Require Import Sorted.
From BpafLemmas Require Import Tac Find Reach Ledger TotalLaws CatchLaws OrderLaws.
Import ListNotations.

(* two ledgers that differ from a common one by one consumed item each *)
Lemma pick_winner_go_two : forall l ix i j x y,
  nth_error l i = Some x -> present x = true -> nth_error l j = Some y -> present y = true -> i <> j ->
  pick_winner_go ix (update_nth i Parsed l) (update_nth j Parsed l) = (Nat.ltb i j, Some (ix + Nat.min i j)).
Proof.
  induction l as [|h t IH]; intros ix i j x y Hi Px Hj Py Hne; [destruct i; discriminate|].
  destruct i as [|i], j as [|j]; cbn [update_nth pick_winner_go]; try congruence.
  - cbn in Hj, Hi. inversion Hi; subst h.
    assert (E : parsed x = false) by (unfold parsed; rewrite Px; reflexivity).
    cbn [parsed present negb]. rewrite E. cbn [xorb]. rewrite Nat.add_0_r. reflexivity.
  - cbn in Hj. inversion Hj; subst h.
    assert (E : parsed y = false) by (unfold parsed; rewrite Py; reflexivity).
    cbn [parsed present negb]. rewrite E. cbn [xorb]. rewrite Nat.add_0_r. reflexivity.
  - cbn in Hi, Hj. rewrite xorb_nilpotent.
    rewrite (IH (S ix) i j x y Hi Px Hj Py ltac:(congruence)).
    replace (S ix + Nat.min i j) with (ix + Nat.min (S i) (S j)) by (cbn; lia). reflexivity.
Qed.

Section Step.
Variable env : bytes -> option bytes.

Lemma req_flag_eval n v s : n_env n = [] ->
  eval_flag env n v None s =
  match find_item s (fun _ a => matches_arg n false a) with
  | Some ix => (ROk v, sremove (KFlag n) ix s)
  | None => match flag_item n with Some it => (RErr (missing_msg it s), s) | None => (RPanic P_no_key, s) end
  end.
Proof.
  intros He. unfold eval_flag, take_flag. destruct (find_item s _); [reflexivity|]. rewrite He. reflexivity.
Qed.

(* For a choice between two required flags, evaluated on a state where the leftmost available occurrence of the first
   stands at i and of the second at j (i <> j: the names are different), the choice takes the item at min i j and
   yields the value of the flag that owns it; the other fork's item stays available (marked as a conflict), so the next
   round of `many` / `some` meets it again. *)
Theorem choice_takes_leftmost na va nb vb s i j x y :
  n_env na = [] -> n_env nb = [] ->
  find_item s (fun _ a => matches_arg na false a) = Some i ->
  find_item s (fun _ a => matches_arg nb false a) = Some j ->
  i <> j -> ist_at s i = Some x -> ist_at s j = Some y -> 1 <= remaining s ->
  or_body (eval_flag env na va None) (eval_flag env nb vb None) s =
  if Nat.ltb i j
  then (ROk va, save_conflicts (sremove (KFlag na) i s) (sremove (KFlag nb) j s) i)
  else (ROk vb, save_conflicts (sremove (KFlag nb) j s) (sremove (KFlag na) i s) j).
Proof.
  intros Ea Eb Fa Fb Hne Hx Hy Hr. unfold or_body. rewrite (req_flag_eval na va s Ea), (req_flag_eval nb vb s Eb), Fa, Fb.
  apply find_item_some in Fa. destruct Fa as (Ia & a & sx & _ & Hsx & Px & _).
  apply find_item_some in Fb. destruct Fb as (Ib & b & sy & _ & Hsy & Py & _).
  assert (sx = x) by congruence. assert (sy = y) by congruence. subst sx sy.
  pose proof (sremove_eff (KFlag na) i s x Ia Hx Px) as Ra.
  pose proof (sremove_eff (KFlag nb) j s y Ib Hy Py) as Rb.
  rewrite both_succeed by (rewrite Ra, Rb; reflexivity).
  assert (Hrem : Nat.eqb (remaining s) (remaining (sremove (KFlag na) i s)) = false).
  { rewrite Ra. cbn [remaining]. apply Nat.eqb_neq. lia. }
  rewrite Hrem. cbn [andb].
  assert (Pw : pick_winner (sremove (KFlag na) i s) (sremove (KFlag nb) j s) = (Nat.ltb i j, Some (Nat.min i j))).
  { unfold pick_winner. rewrite Ra, Rb. cbn [ist]. unfold ist_at in Hx, Hy.
    rewrite (pick_winner_go_two (ist s) 0 i j x y Hx Px Hy Py Hne). reflexivity. }
  rewrite Pw. destruct (Nat.ltb i j) eqn:L.
  - apply Nat.ltb_lt in L. rewrite Nat.min_l by lia. reflexivity.
  - apply Nat.ltb_ge in L. rewrite Nat.min_r by lia. reflexivity.
Qed.

Lemma sremove_depth k i s : depth (sremove k i s) = depth s.
Proof. unfold sremove. destruct (in_scope s i && _); reflexivity. Qed.

(* only one of the two is on the line: it is taken *)
Theorem choice_takes_the_one_present na va nb vb s i :
  n_env na = [] -> n_env nb = [] -> flag_item nb <> None ->
  find_item s (fun _ a => matches_arg na false a) = Some i ->
  find_item s (fun _ a => matches_arg nb false a) = None ->
  or_body (eval_flag env na va None) (eval_flag env nb vb None) s = (ROk va, sremove (KFlag na) i s).
Proof.
  intros Ea Eb Hk Fa Fb. unfold or_body. rewrite (req_flag_eval na va s Ea), (req_flag_eval nb vb s Eb), Fa, Fb.
  destruct (flag_item nb) as [it|]; [|congruence].
  unfold this_or_that. rewrite sremove_depth, Nat.compare_refl. reflexivity.
Qed.

Theorem choice_takes_the_other_present na va nb vb s j :
  n_env na = [] -> n_env nb = [] -> flag_item na <> None ->
  find_item s (fun _ a => matches_arg na false a) = None ->
  find_item s (fun _ a => matches_arg nb false a) = Some j ->
  or_body (eval_flag env na va None) (eval_flag env nb vb None) s = (ROk vb, sremove (KFlag nb) j s).
Proof.
  intros Ea Eb Hk Fa Fb. unfold or_body. rewrite (req_flag_eval na va s Ea), (req_flag_eval nb vb s Eb), Fa, Fb.
  destruct (flag_item na) as [it|]; [|congruence].
  unfold this_or_that. rewrite sremove_depth, Nat.compare_refl. reflexivity.
Qed.
End Step.

Lemma Forall2_rev {A B} (R : A -> B -> Prop) l1 l2 : Forall2 R l1 l2 -> Forall2 R (rev l1) (rev l2).
Proof. induction 1; cbn; [constructor|]. apply Forall2_app; [assumption|constructor; [assumption|constructor]]. Qed.

Lemma sorted_snoc {A} (R : A -> A -> Prop) l e :
  StronglySorted R l -> Forall (fun x => R x e) l -> StronglySorted R (l ++ [e]).
Proof.
  induction 1 as [|x l Hs IH Hf]; intros Ha; cbn; [constructor; constructor|].
  inversion Ha; subst. constructor; [apply IH; assumption|]. apply Forall_app. split; [assumption|]. constructor; [assumption|constructor].
Qed.

Section List.
Variable env : bytes -> option bytes.
Variables na nb : named.
Variables va vb : val.
Hypothesis Ea : n_env na = [].
Hypothesis Eb : n_env nb = [].
Hypothesis Ka : flag_item na <> None.
Hypothesis Kb : flag_item nb <> None.
(* different names: no item is an occurrence of both *)
Hypothesis Hdis : forall a, matches_arg na false a = true -> matches_arg nb false a = false.

Definition ev : evaluator := or_body (eval_flag env na va None) (eval_flag env nb vb None).
Definition mine (a : arg) : bool := matches_arg na false a || matches_arg nb false a.
Definition cand (s : state) (q : nat) : Prop :=
  in_scope s q = true /\ live s q /\ exists a, nth_error (items s) q = Some a /\ mine a = true.
(* who owns a round: the value and the consumer recorded in the log *)
Definition own (v : val) (e : nat * ckind) : Prop := (snd e = KFlag na /\ v = va) \/ (snd e = KFlag nb /\ v = vb).

Lemma ev_reach_ev : ev_reach (fun _ => True) ev.
Proof. apply or_reach; apply eval_flag_reach; exact I. Qed.

Lemma live_save_conflicts s l w q : live (save_conflicts s l w) q <-> live s q.
Proof.
  unfold live, present_at, ist_at, save_conflicts. cbn [ist set_ist].
  pose proof (save_conflicts_go_present w (ist s) (ist l) q) as H.
  destruct (nth_error (save_conflicts_go w (ist s) (ist l)) q), (nth_error (ist s) q); cbn in *; split; congruence.
Qed.

Lemma live_sremove_iff k p s q st : in_scope s p = true -> ist_at s p = Some st -> present st = true ->
  (live (sremove k p s) q <-> live s q /\ q <> p).
Proof.
  intros Hin Hs Hp. unfold live. rewrite (present_at_sremove k p s st q Hin Hs Hp).
  destruct (Nat.eqb_spec q p) as [->|Hne]; [split; [discriminate|intros [_ H]; destruct (H eq_refl)]|tauto].
Qed.

(* what one successful round does to the state: item p goes to consumer k, nothing else moves *)
Definition round_of (s s1 : state) (p : nat) (k : ckind) : Prop :=
  log s1 = (p, k) :: log s /\ (forall q, live s1 q <-> live s q /\ q <> p) /\ items s1 = items s /\
  (forall q, in_scope s1 q = in_scope s q) /\ remaining s1 = pred (remaining s).

Lemma round_of_sremove k p s st : in_scope s p = true -> ist_at s p = Some st -> present st = true ->
  round_of s (sremove k p s) p k.
Proof.
  intros Hin Hs Hp. split; [|split; [|split; [|split]]].
  - rewrite (sremove_eff k p s st Hin Hs Hp). reflexivity.
  - intros q. apply (live_sremove_iff _ _ _ _ st Hin Hs Hp).
  - apply sremove_items.
  - intros q. apply sremove_scope.
  - rewrite (sremove_eff k p s st Hin Hs Hp). reflexivity.
Qed.

Lemma round_of_marks s s1 p k l w : round_of s s1 p k -> round_of s (save_conflicts s1 l w) p k.
Proof.
  intros (A & B & C & D & E). split; [exact A|]. split; [|split; [exact C|split; [exact D|exact E]]].
  intros q. rewrite live_save_conflicts. apply B.
Qed.

Lemma flag_found n s i : G s -> find_item s (fun _ a => matches_arg n false a) = Some i ->
  (forall a, matches_arg n false a = true -> mine a = true) ->
  exists a x, nth_error (items s) i = Some a /\ matches_arg n false a = true /\ ist_at s i = Some x /\
              cand s i /\ round_of s (sremove (KFlag n) i s) i (KFlag n) /\ 1 <= remaining s.
Proof.
  intros Hg F Hm. destruct (find_item_some _ _ _ F) as (Hin & a & x & Ha & Hx & Px & Ma).
  assert (Li : live s i) by (unfold live, present_at; rewrite Hx; cbn; rewrite Px; reflexivity).
  exists a, x. split; [exact Ha|]. split; [exact Ma|]. split; [exact Hx|]. split; [|split].
  - split; [exact Hin|]. split; [exact Li|]. exists a. split; [exact Ha|]. apply Hm, Ma.
  - apply (round_of_sremove _ _ _ x Hin Hx Px).
  - apply (remaining_pos s i Hg Hin Li).
Qed.

Lemma cand_bound s q : cand s q ->
  (exists i, find_item s (fun _ a => matches_arg na false a) = Some i /\ i <= q) \/
  (exists j, find_item s (fun _ a => matches_arg nb false a) = Some j /\ j <= q).
Proof.
  intros (Hin & Hl & c & Hc & Hm). unfold live, present_at in Hl.
  destruct (ist_at s q) as [st|] eqn:Hs; [|discriminate]. cbn in Hl. inversion Hl as [Hp].
  unfold mine in Hm. apply orb_prop in Hm.
  destruct Hm as [Hm|Hm]; [left|right]; apply (find_item_complete s _ q c st Hin Hc Hs Hp Hm).
Qed.

Lemma round_step s : G s ->
  (exists e, ev s = (RErr e, s) /\ is_missing e = true) \/
  (exists v p k s1, ev s = (ROk v, s1) /\ own v (p, k) /\ round_of s s1 p k /\ cand s p /\ (forall q, cand s q -> p <= q)).
Proof.
  intros Hg. pose proof (cand_bound s) as Hb.
  assert (Ma : forall a, matches_arg na false a = true -> mine a = true) by (intros a M; unfold mine; rewrite M; reflexivity).
  assert (Mb : forall a, matches_arg nb false a = true -> mine a = true) by (intros a M; unfold mine; rewrite M; apply orb_true_r).
  destruct (find_item s (fun _ a => matches_arg na false a)) as [i|] eqn:Fa;
    destruct (find_item s (fun _ a => matches_arg nb false a)) as [j|] eqn:Fb.
  - (* both on the line: the one further left is taken, the other is marked and stays *)
    destruct (flag_found na s i Hg Fa Ma) as (a & x & Ha & Mia & Hx & Ci & Ri & Hr).
    destruct (flag_found nb s j Hg Fb Mb) as (b & y & Hb' & Mjb & Hy & Cj & Rj & _).
    assert (Hne : i <> j).
    { intros ->. rewrite Ha in Hb'. inversion Hb'; subst b. rewrite (Hdis a Mia) in Mjb. discriminate. }
    right. destruct (Nat.ltb i j) eqn:L.
    + exists va, i, (KFlag na), (save_conflicts (sremove (KFlag na) i s) (sremove (KFlag nb) j s) i).
      split; [|split; [|split; [|split; [exact Ci|]]]].
      * unfold ev. rewrite (choice_takes_leftmost env na va nb vb s i j x y Ea Eb Fa Fb Hne Hx Hy Hr), L. reflexivity.
      * left. split; reflexivity.
      * apply round_of_marks, Ri.
      * apply Nat.ltb_lt in L. intros q Hq. destruct (Hb q Hq) as [(i' & E & Hle)|(j' & E & Hle)]; inversion E; lia.
    + exists vb, j, (KFlag nb), (save_conflicts (sremove (KFlag nb) j s) (sremove (KFlag na) i s) j).
      split; [|split; [|split; [|split; [exact Cj|]]]].
      * unfold ev. rewrite (choice_takes_leftmost env na va nb vb s i j x y Ea Eb Fa Fb Hne Hx Hy Hr), L. reflexivity.
      * right. split; reflexivity.
      * apply round_of_marks, Rj.
      * apply Nat.ltb_ge in L. intros q Hq. destruct (Hb q Hq) as [(i' & E & Hle)|(j' & E & Hle)]; inversion E; lia.
  - destruct (flag_found na s i Hg Fa Ma) as (a & x & _ & _ & _ & Ci & Ri & _).
    right. exists va, i, (KFlag na), (sremove (KFlag na) i s). split; [|split; [|split; [exact Ri|split; [exact Ci|]]]].
    + apply (choice_takes_the_one_present env na va nb vb s i Ea Eb Kb Fa Fb).
    + left. split; reflexivity.
    + intros q Hq. destruct (Hb q Hq) as [(i' & E & Hle)|(j' & E & Hle)]; inversion E; lia.
  - destruct (flag_found nb s j Hg Fb Mb) as (b & y & _ & _ & _ & Cj & Rj & _).
    right. exists vb, j, (KFlag nb), (sremove (KFlag nb) j s). split; [|split; [|split; [exact Rj|split; [exact Cj|]]]].
    + apply (choice_takes_the_other_present env na va nb vb s j Ea Eb Ka Fa Fb).
    + right. split; reflexivity.
    + intros q Hq. destruct (Hb q Hq) as [(i' & E & Hle)|(j' & E & Hle)]; inversion E; lia.
  - (* neither: both are missing *)
    left. unfold ev, or_body. rewrite (req_flag_eval env na va s Ea), (req_flag_eval env nb vb s Eb), Fa, Fb.
    destruct (flag_item na) as [ia|]; [|congruence]. destruct (flag_item nb) as [ib|]; [|congruence].
    unfold this_or_that. rewrite Nat.compare_refl. cbn. eexists. split; reflexivity.
Qed.

(* the same with round_of spelled out *)
Lemma round s : G s ->
  (exists e, ev s = (RErr e, s) /\ is_missing e = true) \/
  (exists v p k s1, ev s = (ROk v, s1) /\ own v (p, k) /\ log s1 = (p, k) :: log s /\
     (forall q, live s1 q <-> live s q /\ q <> p) /\ items s1 = items s /\ (forall q, in_scope s1 q = in_scope s q) /\
     remaining s1 = pred (remaining s) /\ cand s p /\ (forall q, cand s q -> p <= q)).
Proof.
  intros Hg. destruct (round_step s Hg) as [H|(v & p & k & s1 & E & O & (A & B & C & D & F) & Hc & Hl)]; [left; exact H|].
  right. exists v, p, k, s1. exact (conj E (conj O (conj A (conj B (conj C (conj D (conj F (conj Hc Hl)))))))).
Qed.

Definition descending (a b : nat * ckind) : Prop := fst b < fst a.

(* the loop: what the rounds consumed, most recent first *)
Lemma many_loop_order : forall fuel len s acc u acc' s',
  G s -> (len = None \/ len = Some (remaining s)) ->
  many_loop ev false fuel len s acc = (ROk u, acc', s') ->
  exists es vs, log s' = es ++ log s /\ acc' = vs ++ acc /\ Forall2 own vs es /\
                StronglySorted descending es /\ Forall (fun e => cand s (fst e)) es.
Proof.
  induction fuel as [|f IH]; intros len s acc u acc' s' Hg Hlen H; [discriminate|].
  cbn [many_loop] in H. unfold parse_option in H.
  destruct (round s Hg) as [(e & Ev & Hm)|(v & p & k & s1 & Ev & Ho & Hlog & Hlive & Hit & Hsc & Hrem & Hc & Hleast)].
  - rewrite Ev in H. rewrite Hm, Nat.eqb_refl in H. cbn in H. inversion H; subst.
    exists [], []. repeat split; constructor.
  - rewrite Ev in H.
    assert (Hr : 1 <= remaining s) by (destruct Hc as (Hin & Hl & _); eapply remaining_pos; eauto).
    assert (Hlt : lt_len (remaining s1) len = true).
    { destruct Hlen as [->| ->]; [reflexivity|]. cbn. apply Nat.ltb_lt. lia. }
    rewrite Hlt in H.
    assert (G1 : G s1).
    { pose proof (ev_reach_ev s) as R. rewrite Ev in R. cbn in R. apply (reach_G _ _ _ R Hg). }
    destruct (IH (Some (remaining s1)) s1 (v :: acc) u acc' s' G1 (or_intror eq_refl) H)
      as (es & vs & Hl & Ha & Hf2 & Hs & Hall).
    assert (Hup : Forall (fun e => cand s (fst e) /\ p < fst e) es).
    { rewrite Forall_forall in *. intros e He. destruct (Hall e He) as (Hin & Hlv & a & Hae & Hme).
      assert (C : cand s (fst e)).
      { split; [rewrite <- Hsc; exact Hin|]. split; [apply Hlive in Hlv; tauto|]. exists a. rewrite <- Hit. auto. }
      split; [exact C|]. pose proof (Hleast _ C). apply Hlive in Hlv. lia. }
    exists (es ++ [(p, k)]), (vs ++ [v]).
    split. { rewrite Hl, Hlog, <- app_assoc. reflexivity. }
    split. { rewrite Ha, <- app_assoc. reflexivity. }
    split. { apply Forall2_app; [exact Hf2|constructor; [exact Ho|constructor]]. }
    split.
    + apply sorted_snoc; [exact Hs|]. eapply Forall_impl; [|exact Hup]. intros e He. exact (proj2 He).
    + apply Forall_app. split.
      * eapply Forall_impl; [|exact Hup]. cbn. tauto.
      * constructor; [exact Hc|constructor].
Qed.

(* many over the choice: the list it returns, read from its head, consumed strictly increasing positions of the line,
   each value being the one of the flag whose consumer took that position *)
Theorem many_choice_in_line_order s vs s' :
  G s -> many_body ev false s = (ROk (VList vs), s') ->
  exists es, log s' = rev es ++ log s /\ Forall2 own vs es /\
             StronglySorted (fun a b => fst a < fst b) es /\ Forall (fun e => cand s (fst e)) es.
Proof.
  intros Hg H. unfold many_body in H.
  destruct (many_loop ev false (loop_fuel s) None s []) as [[r acc] s1] eqn:E.
  destruct r; try discriminate. inversion H; subst.
  destruct (many_loop_order _ _ _ _ _ _ _ Hg (or_introl eq_refl) E) as (es & ws & Hl & Ha & Hf2 & Hs & Hall).
  rewrite app_nil_r in Ha. subst acc.
  exists (rev es). rewrite rev_involutive. split; [exact Hl|]. split; [rewrite <- (rev_involutive ws); apply Forall2_rev; rewrite rev_involutive; exact Hf2|].
  split; [|apply Forall_rev; exact Hall].
  clear - Hs. induction Hs as [|e es Hs IH Hf]; cbn; [constructor|].
  apply sorted_snoc; [exact IH|]. rewrite Forall_forall in *. intros x Hx. apply in_rev in Hx. apply (Hf x Hx).
Qed.
End List.
