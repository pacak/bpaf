(* Closure.v -- the interpreter is wiring: a property of evaluators that every combinator body preserves holds of
   `eval env p` for every p.  The wiring is done once (eval_closed); the bodies are done once for the shapes most
   invariants have: a preorder on states that every evaluation respects, one that the successful ones respect, and
   a predicate on the errors reported (no combinator invents an error). *)
From BpafLemmas Require Import Tac Cases.

Scheme parser_mut := Induction for parser Sort Prop
  with plist_mut := Induction for plist Sort Prop
  with oparser_mut := Induction for oparser Sort Prop.
Combined Scheme parser_plist_oparser_ind from parser_mut, plist_mut, oparser_mut.

Fixpoint every (A : parser -> Prop) (B : oparser -> Prop) (p : parser) {struct p} : Prop :=
  A p /\
  match p with
  | PCmd _ _ _ _ _ sub => every_o A B sub
  | PCon fields | PAdj fields => every_l A B fields
  | POr a b => every A B a /\ every A B b
  | POptional q _ | PMany q _ | PSome q _ _ | PCollect q _ | PCount q | PLast q
  | PFallback q _ _ | PFallbackWith q _ _ | PGuard q _ _ | PParse q _ | PMap q _
  | PHide q | PUsage q _ | PGroupHelp q _ | PBoxed q => every A B q
  | _ => True
  end
with every_l (A : parser -> Prop) (B : oparser -> Prop) (ps : plist) {struct ps} : Prop :=
  match ps with
  | PNil => True
  | PCons q t => every A B q /\ every_l A B t
  end
with every_o (A : parser -> Prop) (B : oparser -> Prop) (o : oparser) {struct o} : Prop :=
  B o /\ match o with Options q _ => every A B q end.

Lemma every_true :
  (forall p, every (fun _ => True) (fun _ => True) p) /\
  (forall ps, every_l (fun _ => True) (fun _ => True) ps) /\
  (forall o, every_o (fun _ => True) (fun _ => True) o).
Proof. apply parser_plist_oparser_ind; cbn; auto. Qed.

Definition runner := state -> sres * state.

Section Closed.
Variable env : bytes -> option bytes.
Variable A : parser -> Prop.
Variable B : oparser -> Prop.
Variable P : evaluator -> Prop.
Variable Q : runner -> Prop.

Hypothesis P_flag : forall n p a, A (PFlag n p a) -> P (eval_flag env n p a).
Hypothesis P_arg : forall n mv ty adj, A (PArg n mv ty adj) -> P (eval_arg env n mv ty adj).
Hypothesis P_pos : forall mv ty pos help, A (PPos mv ty pos help) -> P (eval_pos mv ty pos help).
Hypothesis P_any : forall mv help check anywhere, A (PAny mv help check anywhere) -> P (eval_any mv help check anywhere).
Hypothesis P_cmd : forall name aliases shorts help adjacent sub,
  A (PCmd name aliases shorts help adjacent sub) -> Q (run_sub env sub) ->
  P (cmd_body name aliases shorts help adjacent (ometa_of sub) (oinfo_of sub) (run_sub env sub)).
Hypothesis P_con : forall evs, Forall P evs -> P (con_body false evs).
Hypothesis P_adj : forall fields, A (PAdj fields) -> Forall P (evals env fields) ->
  P (eval_adjacent (con_body true (evals env fields)) (first_item (con_meta fields))).
Hypothesis P_or : forall eva evb, P eva -> P evb -> P (or_body eva evb).
Hypothesis P_optional : forall ev c, P ev -> P (optional_body ev c).
Hypothesis P_many : forall ev c, P ev -> P (many_body ev c).
Hypothesis P_some : forall ev m c, P ev -> P (some_body ev m c).
Hypothesis P_count : forall ev, P ev -> P (count_body ev).
Hypothesis P_last : forall ev, P ev -> P (last_body ev).
Hypothesis P_fallback_with : forall ev fb, P ev -> P (fallback_with_body ev fb).
Hypothesis P_guard : forall ev c m, P ev -> P (guard_body ev c m).
Hypothesis P_parse : forall ev f, P ev -> P (parse_body ev f).
Hypothesis P_map : forall ev f, P ev -> P (map_body ev f).
Hypothesis P_hide : forall ev, P ev -> P (hide_body ev).
Hypothesis P_pure : forall v, P (fun s => (ROk v, set_current s None)).
Hypothesis P_pure_with : forall r : val + bytes,
  P (fun s => match r with inl v => (ROk v, s) | inr e => (RErr (MsgPureFailed e), s) end).
Hypothesis P_fail : forall msg, P (fun s => (RErr (MsgParseFail msg), set_current s None)).
Hypothesis Q_run : forall q inf, B (Options q inf) -> P (eval env q) -> Q (run_sub env (Options q inf)).

Theorem eval_closed :
  (forall p, every A B p -> P (eval env p)) /\
  (forall ps, every_l A B ps -> Forall P (evals env ps)) /\
  (forall o, every_o A B o -> Q (run_sub env o)).
Proof.
  apply parser_plist_oparser_ind; cbn [every every_l every_o].
  - intros n p a [Ha _]. exact (P_flag _ _ _ Ha).
  - intros n mv ty adj [Ha _]. exact (P_arg _ _ _ _ Ha).
  - intros mv ty pos help [Ha _]. exact (P_pos _ _ _ _ Ha).
  - intros mv help check anywhere [Ha _]. exact (P_any _ _ _ _ Ha).
  - intros name aliases shorts help adjacent sub IH [Ha Hs]. exact (P_cmd _ _ _ _ _ _ Ha (IH Hs)).
  - intros fields IH [_ Hs]. specialize (IH Hs). destruct fields as [|q1 [|q2 t]].
    + exact (P_pure _).
    + rewrite evals_cons in IH. exact (Forall_inv IH).
    + exact (P_con _ IH).
  - intros fields IH [Ha Hs]. exact (P_adj _ Ha (IH Hs)).
  - intros a IHa b IHb [_ [Ha Hb]]. exact (P_or _ _ (IHa Ha) (IHb Hb)).
  - intros q IH c [_ Hq]. exact (P_optional _ c (IH Hq)).
  - intros q IH c [_ Hq]. exact (P_many _ c (IH Hq)).
  - intros q IH m c [_ Hq]. exact (P_some _ m c (IH Hq)).
  - intros q IH c [_ Hq]. exact (P_many _ c (IH Hq)).
  - intros q IH [_ Hq]. exact (P_count _ (IH Hq)).
  - intros q IH [_ Hq]. exact (P_last _ (IH Hq)).
  - intros q IH v sh [_ Hq]. exact (P_fallback_with _ (inl v) (IH Hq)).
  - intros q IH fb sh [_ Hq]. exact (P_fallback_with _ fb (IH Hq)).
  - intros q IH c m [_ Hq]. exact (P_guard _ c m (IH Hq)).
  - intros q IH f [_ Hq]. exact (P_parse _ f (IH Hq)).
  - intros q IH f [_ Hq]. exact (P_map _ f (IH Hq)).
  - intros q IH [_ Hq]. exact (P_hide _ (IH Hq)).
  - intros q IH d [_ Hq]. exact (IH Hq).
  - intros q IH d [_ Hq]. exact (IH Hq).
  - intros v _. exact (P_pure v).
  - intros r _. exact (P_pure_with r).
  - intros msg _. exact (P_fail msg).
  - intros q IH [_ Hq]. exact (IH Hq).
  - intros _. constructor.
  - intros q IHq t IHt [Hq Ht]. rewrite evals_cons. constructor; auto.
  - intros q IH inf [Hb Hq]. exact (Q_run _ _ Hb (IH Hq)).
Qed.
End Closed.

(* what the bodies themselves do to a state: nothing, one step after another, resetting `current`, and
   marking conflicts on the branch an alternative keeps *)
Record rel_ok (R : state -> state -> Prop) : Prop := mkRelOk {
  rel_refl : forall s, R s s;
  rel_trans : forall s1 s2 s3, R s1 s2 -> R s2 s3 -> R s1 s3;
  rel_current : forall s c, R s (set_current s c);
  rel_marks : forall s x loser w, R s x -> w < length (ist x) -> R s (save_conflicts x loser w) }.

Section Rel.
Variable R : state -> state -> Prop.
Hypothesis HR : rel_ok R.
Let R_refl := rel_refl R HR.
Let R_trans := rel_trans R HR.
Let R_current := rel_current R HR.
Let R_marks := rel_marks R HR.

Definition respects (ev : evaluator) : Prop := forall s, R s (snd (ev s)).
Definition respects_run (run : runner) : Prop := forall s, R s (snd (run s)).

Lemma respects_at ev s r s' : respects ev -> ev s = (r, s') -> R s s'.
Proof. intros H E. specialize (H s). rewrite E in H. exact H. Qed.

Lemma parse_option_rel ev len s catch : respects ev -> R s (snd (parse_option ev len s catch)).
Proof. intros H. destruct (parse_option_state ev len s catch) as [-> | ->]; auto. Qed.

Lemma many_loop_rel ev catch fuel len s acc : respects ev -> R s (snd (many_loop ev catch fuel len s acc)).
Proof.
  intros H. revert len s acc. induction fuel as [|f IH]; intros len s acc; cbn [many_loop]; [apply R_refl|].
  pose proof (parse_option_rel ev len s catch H) as Hp.
  destruct (parse_option ev len s catch) as [[o len'] s']. cbn [snd] in Hp.
  destruct o; cbn [snd]; auto. eapply R_trans; [exact Hp|apply IH].
Qed.

Lemma count_loop_rel ev fuel len s cur n last : respects ev -> R s (snd (count_loop ev fuel len s cur n last)).
Proof.
  intros H. revert len s cur n last.
  induction fuel as [|f IH]; intros len s cur n last; cbn [count_loop]; [apply R_refl|].
  pose proof (parse_option_rel ev len s false H) as Hp.
  destruct (parse_option ev len s false) as [[o len'] s']. cbn [snd] in Hp.
  destruct o; cbn [snd]; auto.
  destruct (Nat.eqb cur (remaining s')); cbn [snd]; [exact Hp|]. eapply R_trans; [exact Hp|apply IH].
Qed.

Lemma optional_rel ev c : respects ev -> respects (optional_body ev c).
Proof.
  intros H s. unfold optional_body. pose proof (parse_option_rel ev None s c H) as Hp.
  destruct (parse_option ev None s c) as [[o len'] s']. destruct o; exact Hp.
Qed.

Lemma many_rel ev c : respects ev -> respects (many_body ev c).
Proof.
  intros H s. unfold many_body. pose proof (many_loop_rel ev c (loop_fuel s) None s [] H) as Hp.
  destruct (many_loop ev c (loop_fuel s) None s []) as [[r acc] s']. destruct r; exact Hp.
Qed.

Lemma some_rel ev m c : respects ev -> respects (some_body ev m c).
Proof.
  intros H s. unfold some_body. pose proof (many_loop_rel ev c (loop_fuel s) None s [] H) as Hp.
  destruct (many_loop ev c (loop_fuel s) None s []) as [[r acc] s']. destruct r; try exact Hp. destruct acc; exact Hp.
Qed.

Lemma count_rel ev : respects ev -> respects (count_body ev).
Proof.
  intros H s. unfold count_body. pose proof (count_loop_rel ev (loop_fuel s) None s (remaining s) O None H) as Hp.
  destruct (count_loop ev (loop_fuel s) None s (remaining s) O None) as [[[r n] l] s']. destruct r; exact Hp.
Qed.

Lemma last_rel ev : respects ev -> respects (last_body ev).
Proof.
  intros H s. unfold last_body. pose proof (count_loop_rel ev (loop_fuel s) None s (remaining s) O None H) as Hp.
  destruct (count_loop ev (loop_fuel s) None s (remaining s) O None) as [[[r n] l] s']. cbn [snd] in Hp.
  destruct r; try exact Hp. destruct l; [exact Hp|]. eapply R_trans; [exact Hp|apply H].
Qed.

Lemma fallback_with_rel ev fb : respects ev -> respects (fallback_with_body ev fb).
Proof.
  intros H s. unfold fallback_with_body. specialize (H s). destruct (ev s) as [r s'].
  destruct r; auto. destruct (can_catch m); [destruct fb|]; apply R_refl.
Qed.

Lemma guard_rel ev c m : respects ev -> respects (guard_body ev c m).
Proof.
  intros H s. unfold guard_body. specialize (H s). destruct (ev s) as [r s']. destruct r; auto. destruct (c v); exact H.
Qed.

Lemma parse_rel ev f : respects ev -> respects (parse_body ev f).
Proof.
  intros H s. unfold parse_body. specialize (H s). destruct (ev s) as [r s']. destruct r; auto. destruct (f v); exact H.
Qed.

Lemma map_rel ev f : respects ev -> respects (map_body ev f).
Proof. intros H s. unfold map_body. specialize (H s). destruct (ev s) as [r s']. destruct r; exact H. Qed.

Lemma hide_rel ev : respects ev -> respects (hide_body ev).
Proof.
  intros H s. unfold hide_body. specialize (H s). destruct (ev s) as [r s']. destruct r; auto. destruct m; exact H.
Qed.

Lemma or_rel eva evb : respects eva -> respects evb -> respects (or_body eva evb).
Proof.
  intros Ha Hb s. destruct (or_body_state eva evb s) as [-> |[-> |[-> |[(w & Hw & ->)|(w & Hw & ->)]]]].
  - apply R_refl.
  - apply Ha.
  - apply Hb.
  - apply R_marks; [apply Ha|exact Hw].
  - apply R_marks; [apply Hb|exact Hw].
Qed.

Lemma con_go_rel ff evs s first acc err : Forall respects evs -> R s (snd (con_go ff evs s first acc err)).
Proof.
  intros Hall. revert s first acc err.
  induction Hall as [|ev evs Hev Hall IH]; intros s first acc err; cbn [con_go].
  - destruct err; [apply R_refl|apply R_current].
  - specialize (Hev s). destruct (ev s) as [r s']. cbn [snd] in Hev. destruct r; auto.
    + eapply R_trans; [exact Hev|apply IH].
    + destruct (ff && first); [exact Hev|]. eapply R_trans; [exact Hev|apply IH].
Qed.

Lemma con_rel ff evs : Forall respects evs -> respects (con_body ff evs).
Proof.
  intros Hall s. unfold con_body, con_reset. pose proof (con_go_rel ff evs s true [] None Hall) as H.
  destruct (con_go ff evs s true [] None) as [r s']. eapply R_trans; [exact H|apply R_current].
Qed.

Lemma pure_rel v : respects (fun s => (ROk v, set_current s None)).
Proof. intros s. apply R_current. Qed.
Lemma pure_with_rel (r : val + bytes) :
  respects (fun s => match r with inl v => (ROk v, s) | inr e => (RErr (MsgPureFailed e), s) end).
Proof. intros s. destruct r; apply R_refl. Qed.
Lemma fail_rel msg : respects (fun s => (RErr (MsgParseFail msg), set_current s None)).
Proof. intros s. apply R_current. Qed.

Lemma info_eval_rel env i s :
  respects (eval_flag env (i_help_arg i) VUnit None) -> respects (eval_flag env (i_version_arg i) VUnit None) ->
  R s (snd (info_eval env i s)).
Proof.
  intros Hh Hv. destruct (info_eval_state env i s) as [-> |[-> | ->]]; eauto.
Qed.

Lemma run_sub_body_rel env inf m s res :
  respects (eval_flag env (i_help_arg inf) VUnit None) -> respects (eval_flag env (i_version_arg inf) VUnit None) ->
  R s (snd res) -> R s (snd (run_sub_body env inf m s res)).
Proof.
  intros Hh Hv Hr. destruct res as [r s1]. destruct (run_sub_body_state env inf m s r s1) as [-> | ->]; [exact Hr|].
  eapply R_trans; [exact Hr|apply info_eval_rel; assumption].
Qed.

(* the primitives remove what they find, reset `current`, or leave the state alone *)
Section RelLeaves.
Hypothesis R_remove : forall k ix s, R s (sremove k ix s).
Variable env : bytes -> option bytes.

Lemma flag_rel n p a : respects (eval_flag env n p a).
Proof.
  intros s. unfold eval_flag, take_flag. destruct (find_item s _); [apply R_remove|].
  destruct (env_first env (n_env n)); [apply R_refl|]. destruct a; [apply R_refl|].
  destruct (flag_item n); [apply R_refl|]. destruct (n_env n); apply R_refl.
Qed.

Lemma arg_rel n mv ty adj : respects (eval_arg env n mv ty adj).
Proof.
  intros s. unfold eval_arg, take_arg. destruct (find_item s _) as [key|].
  - destruct (get s (S key)) as [[]|]; try apply R_refl; rewrite convert_res_snd;
      (eapply R_trans; apply R_remove).
  - destruct (env_first env (n_env n)); [rewrite convert_res_snd; apply R_current|].
    destruct (arg_item n mv); [apply R_refl|]. destruct (n_env n); apply R_refl.
Qed.

Lemma pos_rel mv ty pos help : respects (eval_pos mv ty pos help).
Proof.
  intros s. unfold eval_pos, take_positional_word. destruct (find_item s _) as [ix|]; [|apply R_refl].
  destruct (nth_error (items s) ix) as [[]|]; try apply R_refl;
    (destruct pos; cbn [snd]; try rewrite convert_res_snd; apply R_remove).
Qed.

Lemma any_rel mv help check anywhere : respects (eval_any mv help check anywhere).
Proof.
  intros s. unfold eval_any.
  match goal with |- context [match ?f with Some _ => _ | None => _ end] => destruct f as [ix|] end; [|apply R_refl].
  destruct (nth_error (items s) ix) as [a|]; [|apply R_refl].
  destruct (check (arg_os a)); [|apply R_refl]. cbn [snd].
  match goal with |- context [if ?b then _ else _] => destruct b end; [eapply R_trans|]; apply R_remove.
Qed.
End RelLeaves.

(* groups and commands move the scope *)
Section RelScope.
Hypothesis R_scope : forall s a b s', set_scope s a b = Some s' -> R s s'.

Lemma window_rel s ta : window s ta -> R s ta.
Proof. intros (a & b & H). eapply R_scope; eauto. Qed.

Lemma adjacent_rel ev fi : respects ev -> respects (eval_adjacent ev fi).
Proof.
  intros H s. pose proof (eval_adjacent_cases ev fi s) as C.
  destruct (eval_adjacent ev fi s) as [[v|e|w|] s']; cbn [snd]; try (subst s'; apply R_refl).
  - destruct C as (ta & t1 & W & E & _ & Sc).
    eapply R_trans; [apply window_rel; exact W|]. eapply R_trans; [eapply respects_at; eauto|eapply R_scope; eauto].
  - destruct C as (t & [(it & _ & _ & ->)|(ta & W & E)] & Sc); [eapply R_scope; eauto|].
    eapply R_trans; [apply window_rel; exact W|]. eapply R_trans; [eapply respects_at; eauto|eapply R_scope; eauto].
Qed.

Hypothesis R_path : forall s p, R s (set_path s p).

Lemma cmd_entered_rel name s1 s3 : cmd_entered name s1 = Some s3 -> R s1 s3.
Proof.
  intros H. apply cmd_entered_fields in H. destruct H as (cur & s2 & _ & E & ->).
  eapply R_trans; [eapply R_scope; eauto|apply R_path].
Qed.

Lemma cmd_adjacent_rel run s3 : respects_run run -> R s3 (snd (cmd_adjacent run s3)).
Proof.
  intros H. pose proof (cmd_adjacent_cases run s3) as C.
  assert (Hw : forall w, window s3 w -> R s3 (snd (run w))).
  { intros w W. eapply R_trans; [apply window_rel; exact W|apply H]. }
  destruct (cmd_adjacent run s3) as [[v|e|w|] s']; cbn [snd].
  - destruct C as (w & t & W & E & Sc). specialize (Hw w W). rewrite E in Hw. eapply R_trans; [exact Hw|eapply R_scope; eauto].
  - destruct C as (w & f & W & E & _). specialize (Hw w W). rewrite E in Hw. exact Hw.
  - destruct C as [-> |(w0 & W & ->)]; auto.
  - destruct C as [-> |(w0 & W & ->)]; auto.
Qed.

Lemma cmd_rel name aliases shorts help adjacent m i run :
  (forall s, R s (snd (take_cmd_any ((name :: aliases) ++ map utf8_encode_char shorts) s))) ->
  respects_run run -> respects (cmd_body name aliases shorts help adjacent m i run).
Proof.
  intros Hn Hrun s. rewrite cmd_body_eq. specialize (Hn s).
  destruct (take_cmd_any _ s) as [[|] s1]; cbn [snd] in *; [|exact Hn].
  destruct (cmd_entered name s1) as [s3|] eqn:E; [|exact Hn].
  apply cmd_entered_rel in E. eapply R_trans; [exact Hn|]. eapply R_trans; [exact E|].
  destruct adjacent; [apply cmd_adjacent_rel; exact Hrun|apply Hrun].
Qed.
End RelScope.

(* the first four premises are met by flag_rel .. any_rel when R s (sremove k ix s); the next two by cmd_rel and
   adjacent_rel when R contains the re-scopings (and, for commands, set_path) *)
Theorem eval_respects env (A : parser -> Prop) (B : oparser -> Prop) :
  (forall n p a, A (PFlag n p a) -> respects (eval_flag env n p a)) ->
  (forall n mv ty adj, A (PArg n mv ty adj) -> respects (eval_arg env n mv ty adj)) ->
  (forall mv ty pos help, A (PPos mv ty pos help) -> respects (eval_pos mv ty pos help)) ->
  (forall mv help check anywhere, A (PAny mv help check anywhere) -> respects (eval_any mv help check anywhere)) ->
  (forall name aliases shorts help adjacent sub,
     A (PCmd name aliases shorts help adjacent sub) -> respects_run (run_sub env sub) ->
     respects (cmd_body name aliases shorts help adjacent (ometa_of sub) (oinfo_of sub) (run_sub env sub))) ->
  (forall fields, A (PAdj fields) -> Forall respects (evals env fields) ->
     respects (eval_adjacent (con_body true (evals env fields)) (first_item (con_meta fields)))) ->
  (forall q inf, B (Options q inf) -> respects (eval env q) -> respects_run (run_sub env (Options q inf))) ->
  (forall p, every A B p -> respects (eval env p)) /\
  (forall ps, every_l A B ps -> Forall respects (evals env ps)) /\
  (forall o, every_o A B o -> respects_run (run_sub env o)).
Proof.
  intros Hflag Harg Hpos Hany Hcmd Hadj Hrun.
  apply (eval_closed env A B respects respects_run); auto using con_rel, or_rel, optional_rel, many_rel, some_rel,
    count_rel, last_rel, fallback_with_rel, guard_rel, parse_rel, map_rel, hide_rel, pure_rel, pure_with_rel, fail_rel.
Qed.
End Rel.

Section Ok.
Variable T : state -> state -> Prop.
Hypothesis HT : rel_ok T.
Let T_refl := rel_refl T HT.
Let T_trans := rel_trans T HT.
Let T_current := rel_current T HT.
Let T_marks := rel_marks T HT.

Definition ok_respects (ev : evaluator) : Prop := forall s v s', ev s = (ROk v, s') -> T s s'.
Definition ok_respects_run (run : runner) : Prop := forall s v s', run s = (SOk v, s') -> T s s'.

Lemma respects_ok ev : respects T ev -> ok_respects ev.
Proof. intros H s v s' E. eapply respects_at; eauto. Qed.

Lemma parse_option_okrel ev len s catch o len' s1 :
  ok_respects ev -> parse_option ev len s catch = (o, len', s1) ->
  match o with OSome _ | ONone => T s s1 | _ => True end.
Proof.
  intros H E. pose proof (parse_option_cases ev len s catch) as C. rewrite E in C.
  destruct o; try exact I.
  - destruct C as [_ [(v & Ev & _)|(e & s2 & _ & _ & ->)]]; eauto.
  - destruct C as (Ev & _). eauto.
Qed.

Lemma many_loop_okrel ev catch fuel len s acc u acc' s' :
  ok_respects ev -> many_loop ev catch fuel len s acc = (ROk u, acc', s') -> T s s'.
Proof.
  intros H. revert len s acc. induction fuel as [|f IH]; intros len s acc E; cbn [many_loop] in E; [discriminate|].
  destruct (parse_option ev len s catch) as [[o len'] s1] eqn:Ep.
  pose proof (parse_option_okrel _ _ _ _ _ _ _ H Ep) as Hp.
  destruct o; try discriminate; [inv E; exact Hp|]. eapply T_trans; [exact Hp|eapply IH; eauto].
Qed.

Lemma count_loop_okrel ev fuel len s cur n last u n' last' s' :
  ok_respects ev -> count_loop ev fuel len s cur n last = (ROk u, n', last', s') -> T s s'.
Proof.
  intros H. revert len s cur n last.
  induction fuel as [|f IH]; intros len s cur n last E; cbn [count_loop] in E; [discriminate|].
  destruct (parse_option ev len s false) as [[o len'] s1] eqn:Ep.
  pose proof (parse_option_okrel _ _ _ _ _ _ _ H Ep) as Hp.
  destruct o; try discriminate; [inv E; exact Hp|].
  destruct (Nat.eqb cur (remaining s1)); [inv E; exact Hp|]. eapply T_trans; [exact Hp|eapply IH; eauto].
Qed.

Lemma optional_okrel ev c : ok_respects ev -> ok_respects (optional_body ev c).
Proof.
  intros H s v s' E. unfold optional_body in E. destruct (parse_option ev None s c) as [[o len'] s1] eqn:Ep.
  pose proof (parse_option_okrel _ _ _ _ _ _ _ H Ep) as Hp. destruct o; inv E; exact Hp.
Qed.

Lemma many_okrel ev c : ok_respects ev -> ok_respects (many_body ev c).
Proof.
  intros H s v s' E. unfold many_body in E.
  destruct (many_loop ev c (loop_fuel s) None s []) as [[r acc] s1] eqn:Em. destruct r; inv E.
  eapply many_loop_okrel; eauto.
Qed.

Lemma some_okrel ev m c : ok_respects ev -> ok_respects (some_body ev m c).
Proof.
  intros H s v s' E. unfold some_body in E.
  destruct (many_loop ev c (loop_fuel s) None s []) as [[r acc] s1] eqn:Em.
  destruct r; try (inv E; fail). destruct acc; inv E. eapply many_loop_okrel; eauto.
Qed.

Lemma count_okrel ev : ok_respects ev -> ok_respects (count_body ev).
Proof.
  intros H s v s' E. unfold count_body in E.
  destruct (count_loop ev (loop_fuel s) None s (remaining s) O None) as [[[r n] l] s1] eqn:Em. destruct r; inv E.
  eapply count_loop_okrel; eauto.
Qed.

Lemma last_okrel ev : ok_respects ev -> ok_respects (last_body ev).
Proof.
  intros H s v s' E. unfold last_body in E.
  destruct (count_loop ev (loop_fuel s) None s (remaining s) O None) as [[[r n] l] s1] eqn:Em.
  destruct r; try (inv E; fail). pose proof (count_loop_okrel _ _ _ _ _ _ _ _ _ _ _ H Em) as H1.
  destruct l; [inv E; exact H1|]. eapply T_trans; [exact H1|eapply H; eauto].
Qed.

Lemma fallback_with_okrel ev fb : ok_respects ev -> ok_respects (fallback_with_body ev fb).
Proof.
  intros H s v s' E. unfold fallback_with_body in E. destruct (ev s) as [r s1] eqn:Ev.
  destruct r; try (inv E; fail); [inv E; eauto|]. destruct (can_catch m); [destruct fb|]; inv E. apply T_refl.
Qed.

Lemma guard_okrel ev c m : ok_respects ev -> ok_respects (guard_body ev c m).
Proof.
  intros H s v s' E. unfold guard_body in E. destruct (ev s) as [r s1] eqn:Ev.
  destruct r; try (inv E; fail). destruct (c v0); inv E. eauto.
Qed.

Lemma parse_okrel ev f : ok_respects ev -> ok_respects (parse_body ev f).
Proof.
  intros H s v s' E. unfold parse_body in E. destruct (ev s) as [r s1] eqn:Ev.
  destruct r; try (inv E; fail). destruct (f v0); inv E. eauto.
Qed.

Lemma map_okrel ev f : ok_respects ev -> ok_respects (map_body ev f).
Proof. intros H s v s' E. unfold map_body in E. destruct (ev s) as [r s1] eqn:Ev. destruct r; inv E. eauto. Qed.

Lemma hide_okrel ev : ok_respects ev -> ok_respects (hide_body ev).
Proof.
  intros H s v s' E. unfold hide_body in E. destruct (ev s) as [r s1] eqn:Ev.
  destruct r; try (inv E; fail); [inv E; eauto|]. destruct m; inv E.
Qed.

Lemma or_okrel eva evb : ok_respects eva -> ok_respects evb -> ok_respects (or_body eva evb).
Proof.
  intros Ha Hb s v s' E. apply or_body_ok in E.
  destruct E as [(sa & E & [-> |(w & Hw & ->)])|(sb & E & [-> |(w & Hw & ->)])].
  - exact (Ha _ _ _ E).
  - apply T_marks; [exact (Ha _ _ _ E)|exact Hw].
  - exact (Hb _ _ _ E).
  - apply T_marks; [exact (Hb _ _ _ E)|exact Hw].
Qed.

(* a tuple is built only when every field succeeded *)
Lemma con_go_okrel ff evs s first acc err v s' :
  Forall ok_respects evs -> con_go ff evs s first acc err = (ROk v, s') -> err = None /\ T s s'.
Proof.
  intros Hall. revert s first acc err.
  induction Hall as [|ev evs Hev Hall IH]; intros s first acc err E; cbn [con_go] in E.
  - destruct err; inv E. auto.
  - destruct (ev s) as [r s1] eqn:Ev. destruct r; try (inv E; fail).
    + destruct (IH _ _ _ _ E) as [He Hs]. split; [exact He|]. eapply T_trans; [eapply Hev; eauto|exact Hs].
    + destruct (ff && first); [inv E|]. destruct (IH _ _ _ _ E) as [He _]. destruct err; discriminate.
Qed.

Lemma con_okrel ff evs : Forall ok_respects evs -> ok_respects (con_body ff evs).
Proof.
  intros Hall s v s' E. unfold con_body, con_reset in E.
  destruct (con_go ff evs s true [] None) as [r s1] eqn:Ec. inv E.
  destruct (con_go_okrel _ _ _ _ _ _ _ _ Hall Ec) as [_ H]. eapply T_trans; [exact H|apply T_current].
Qed.

Lemma pure_okrel v : ok_respects (fun s => (ROk v, set_current s None)).
Proof. intros s v' s' E. inv E. apply T_current. Qed.
Lemma pure_with_okrel (r : val + bytes) :
  ok_respects (fun s => match r with inl v => (ROk v, s) | inr e => (RErr (MsgPureFailed e), s) end).
Proof. intros s v' s' E. destruct r; inv E. apply T_refl. Qed.
Lemma fail_okrel msg : ok_respects (fun s => (RErr (MsgParseFail msg), set_current s None)).
Proof. intros s v' s' E. inv E. Qed.

(* a level that succeeds did not look for help or version (Info::eval runs only on the failing paths) *)
Lemma run_sub_okrel env q inf : ok_respects (eval env q) -> ok_respects_run (run_sub env (Options q inf)).
Proof. intros H s v s' E. apply run_sub_ok in E. destruct E as [E _]. eauto. Qed.

Section OkScope.
Hypothesis T_scope : forall s a b s', set_scope s a b = Some s' -> T s s'.

Lemma adjacent_okrel ev fi : ok_respects ev -> ok_respects (eval_adjacent ev fi).
Proof.
  intros H s v s' E. pose proof (eval_adjacent_cases ev fi s) as C. rewrite E in C.
  destruct C as (ta & t1 & (a & b & W) & Ev & _ & Sc).
  eapply T_trans; [eapply T_scope; eauto|]. eapply T_trans; [eapply H; eauto|eapply T_scope; eauto].
Qed.

Hypothesis T_path : forall s p, T s (set_path s p).

Lemma cmd_okrel name aliases shorts help adjacent m i run :
  (forall s s1, take_cmd_any ((name :: aliases) ++ map utf8_encode_char shorts) s = (true, s1) -> T s s1) ->
  ok_respects_run run -> ok_respects (cmd_body name aliases shorts help adjacent m i run).
Proof.
  intros Hn Hrun s v s' E. rewrite cmd_body_eq in E.
  destruct (take_cmd_any _ s) as [[|] s1] eqn:Et; [|inv E]. apply Hn in Et.
  destruct (cmd_entered name s1) as [s3|] eqn:Ee; [|inv E].
  apply cmd_entered_fields in Ee. destruct Ee as (cur & s2 & _ & E2 & ->).
  eapply T_trans; [exact Et|]. eapply T_trans; [eapply T_scope; eauto|]. eapply T_trans; [apply T_path|].
  destruct adjacent.
  - pose proof (cmd_adjacent_cases run (set_path s2 (path s2 ++ [name]))) as C. rewrite E in C.
    destruct C as (w & t & (a & b & W) & Er & Sc).
    eapply T_trans; [eapply T_scope; eauto|]. eapply T_trans; [eapply Hrun; eauto|eapply T_scope; eauto].
  - unfold lift_run in E. destruct (run _) as [r s4] eqn:Er. destruct r; inv E. eapply Hrun; eauto.
Qed.
End OkScope.

Theorem eval_ok_respects env (A : parser -> Prop) (B : oparser -> Prop) :
  (forall n p a, A (PFlag n p a) -> ok_respects (eval_flag env n p a)) ->
  (forall n mv ty adj, A (PArg n mv ty adj) -> ok_respects (eval_arg env n mv ty adj)) ->
  (forall mv ty pos help, A (PPos mv ty pos help) -> ok_respects (eval_pos mv ty pos help)) ->
  (forall mv help check anywhere, A (PAny mv help check anywhere) -> ok_respects (eval_any mv help check anywhere)) ->
  (forall name aliases shorts help adjacent sub,
     A (PCmd name aliases shorts help adjacent sub) -> ok_respects_run (run_sub env sub) ->
     ok_respects (cmd_body name aliases shorts help adjacent (ometa_of sub) (oinfo_of sub) (run_sub env sub))) ->
  (forall fields, A (PAdj fields) -> Forall ok_respects (evals env fields) ->
     ok_respects (eval_adjacent (con_body true (evals env fields)) (first_item (con_meta fields)))) ->
  (forall p, every A B p -> ok_respects (eval env p)) /\
  (forall ps, every_l A B ps -> Forall ok_respects (evals env ps)) /\
  (forall o, every_o A B o -> ok_respects_run (run_sub env o)).
Proof.
  intros Hflag Harg Hpos Hany Hcmd Hadj.
  apply (eval_closed env A B ok_respects ok_respects_run); auto using con_okrel, or_okrel, optional_okrel, many_okrel,
    some_okrel, count_okrel, last_okrel, fallback_with_okrel, guard_okrel, parse_okrel, map_okrel, hide_okrel, pure_okrel,
    pure_with_okrel, fail_okrel, run_sub_okrel.
Qed.
End Ok.

(* No combinator invents an error of a new kind: what `eval` reports is what a primitive or a subcommand level
   reported, two such combined by an alternative, the empty `missing` of `hide`, or one of the texts the wrappers
   carry (guard, parse, some, pure, fail).  So a predicate E on messages that holds of those holds of every error --
   on the states an invariant Inv describes, provided Inv survives what the bodies do to a state. *)
Definition wrapper_msg (m : message) : Prop :=
  match m with
  | MsgParseSome _ | MsgPureFailed _ | MsgParseFail _ | MsgGuardFailed _ _ | MsgParseFailed _ _ => True
  | MsgMissing xs => xs = []
  | _ => False
  end.

Record inv_ok (Inv : state -> Prop) : Prop := mkInvOk {
  inv_current : forall s c, Inv s -> Inv (set_current s c);
  inv_marks : forall x loser w, Inv x -> w < length (ist x) -> Inv (save_conflicts x loser w);
  inv_scope : forall s a b s', set_scope s a b = Some s' -> Inv s -> Inv s';
  inv_path : forall s p, Inv s -> Inv (set_path s p) }.

Record msgs_ok (Inv : state -> Prop) (E : message -> Prop) : Prop := mkMsgsOk {
  msgs_wrapper : forall m, wrapper_msg m -> E m;
  msgs_combine : forall a b, E a -> E b -> E (combine_with a b);
  msgs_missing : forall it s, Inv s -> E (missing_msg it s) }.

Lemma combine_ok (E : message -> Prop) a b :
  (forall x y, E (MsgMissing x) -> E (MsgMissing y) -> E (MsgMissing (x ++ y))) -> E a -> E b -> E (combine_with a b).
Proof. intros Hm Ha Hb. destruct (combine_with_cases a b) as [-> |[-> |(x & y & -> & -> & ->)]]; auto. Qed.

Section Err.
Variable Inv : state -> Prop.
Variable E : message -> Prop.
Hypothesis HI : inv_ok Inv.
Hypothesis HE : msgs_ok Inv E.
Let I_scope := inv_scope Inv HI.
Let I_path := inv_path Inv HI.
Let E_wrapper := msgs_wrapper Inv E HE.
Let E_combine := msgs_combine Inv E HE.
Let E_missing := msgs_missing Inv E HE.

Definition keepsI (s s' : state) : Prop := Inv s -> Inv s'.

Lemma keepsI_ok : rel_ok keepsI.
Proof.
  split; unfold keepsI.
  - intros s Hs. exact Hs.
  - intros s1 s2 s3 H12 H23 Hs. exact (H23 (H12 Hs)).
  - intros s c. apply (inv_current Inv HI).
  - intros s x loser w Hx Hw Hs. exact (inv_marks Inv HI x loser w (Hx Hs) Hw).
Qed.

Definition err_ok (r : eres) : Prop := match r with RErr m => E m | _ => True end.
Definition level_ok (r : sres) : Prop := match r with SFail f => E (MsgParseFailure f) | _ => True end.

Definition errs (ev : evaluator) : Prop := respects keepsI ev /\ forall s, Inv s -> err_ok (fst (ev s)).
Definition errs_run (run : runner) : Prop := respects_run keepsI run /\ forall s, Inv s -> level_ok (fst (run s)).

Lemma errs_at ev s r s' : errs ev -> Inv s -> ev s = (r, s') -> err_ok r /\ Inv s'.
Proof. intros [K H] Hs Ev. specialize (K s Hs). specialize (H s Hs). rewrite Ev in K, H. auto. Qed.

Section Wrappers.
Variable ev : evaluator.
Hypothesis Hev : errs ev.

Lemma parse_option_errs len s c : Inv s ->
  match fst (fst (parse_option ev len s c)) with OErr e => E e | _ => True end /\ Inv (snd (parse_option ev len s c)).
Proof.
  intros Hs. split; [|exact (parse_option_rel keepsI keepsI_ok ev len s c (proj1 Hev) Hs)].
  pose proof (parse_option_cases ev len s c) as C. destruct (parse_option ev len s c) as [[o l] s']. cbn [fst].
  destruct o; try exact I. destruct C as (_ & Ev & _). apply (errs_at ev s _ _ Hev Hs Ev).
Qed.

Lemma many_loop_errs c fuel : forall len s acc, Inv s -> err_ok (fst (fst (many_loop ev c fuel len s acc))).
Proof.
  induction fuel as [|f IH]; intros len s acc Hs; cbn [many_loop]; [exact I|].
  destruct (parse_option_errs len s c Hs) as [Q K]. destruct (parse_option ev len s c) as [[o l] s1]. cbn [fst snd] in *.
  destruct o; cbn; auto.
Qed.

Lemma count_loop_errs fuel : forall len s cur k last, Inv s ->
  err_ok (fst (fst (fst (count_loop ev fuel len s cur k last)))) /\ Inv (snd (count_loop ev fuel len s cur k last)).
Proof.
  induction fuel as [|f IH]; intros len s cur k last Hs; cbn [count_loop]; [split; [exact I|exact Hs]|].
  destruct (parse_option_errs len s false Hs) as [Q K]. destruct (parse_option ev len s false) as [[o l] s1]. cbn [fst snd] in *.
  destruct o; cbn; auto. destruct (Nat.eqb cur (remaining s1)); cbn; auto.
Qed.

Lemma optional_errs c : errs (optional_body ev c).
Proof.
  split; [exact (optional_rel keepsI keepsI_ok ev c (proj1 Hev))|]. intros s Hs. unfold optional_body.
  destruct (parse_option_errs None s c Hs) as [Q _]. destruct (parse_option ev None s c) as [[o l] s1]. destruct o; exact Q || exact I.
Qed.

Lemma many_errs c : errs (many_body ev c).
Proof.
  split; [exact (many_rel keepsI keepsI_ok ev c (proj1 Hev))|]. intros s Hs. unfold many_body.
  pose proof (many_loop_errs c (loop_fuel s) None s [] Hs) as Q.
  destruct (many_loop ev c (loop_fuel s) None s []) as [[r acc] s1]. destruct r; exact Q.
Qed.

Lemma some_errs m c : errs (some_body ev m c).
Proof.
  split; [exact (some_rel keepsI keepsI_ok ev m c (proj1 Hev))|]. intros s Hs. unfold some_body.
  pose proof (many_loop_errs c (loop_fuel s) None s [] Hs) as Q.
  destruct (many_loop ev c (loop_fuel s) None s []) as [[r acc] s1]. destruct r; try exact Q.
  destruct acc; [apply E_wrapper|]; exact I.
Qed.

Lemma count_errs : errs (count_body ev).
Proof.
  split; [exact (count_rel keepsI keepsI_ok ev (proj1 Hev))|]. intros s Hs. unfold count_body.
  destruct (count_loop_errs (loop_fuel s) None s (remaining s) 0 None Hs) as [Q _].
  destruct (count_loop ev (loop_fuel s) None s (remaining s) 0 None) as [[[r k] l] s1]. destruct r; exact Q.
Qed.

Lemma last_errs : errs (last_body ev).
Proof.
  split; [exact (last_rel keepsI keepsI_ok ev (proj1 Hev))|]. intros s Hs. unfold last_body.
  destruct (count_loop_errs (loop_fuel s) None s (remaining s) 0 None Hs) as [Q K].
  destruct (count_loop ev (loop_fuel s) None s (remaining s) 0 None) as [[[r k] l] s1]. cbn [fst snd] in *.
  destruct r; try exact Q. destruct l; [exact I|]. apply Hev, K.
Qed.

Lemma fallback_with_errs fb : errs (fallback_with_body ev fb).
Proof.
  split; [exact (fallback_with_rel keepsI keepsI_ok ev fb (proj1 Hev))|]. intros s Hs. unfold fallback_with_body.
  pose proof (proj2 Hev s Hs) as Q. destruct (ev s) as [r s1]. destruct r; try exact Q.
  destruct (can_catch m); [|exact Q]. destruct fb; [|apply E_wrapper]; exact I.
Qed.

Lemma guard_errs c m : errs (guard_body ev c m).
Proof.
  split; [exact (guard_rel keepsI ev c m (proj1 Hev))|]. intros s Hs. unfold guard_body.
  pose proof (proj2 Hev s Hs) as Q. destruct (ev s) as [r s1]. destruct r; try exact Q.
  destruct (c v); [|apply E_wrapper]; exact I.
Qed.

Lemma parse_errs f : errs (parse_body ev f).
Proof.
  split; [exact (parse_rel keepsI ev f (proj1 Hev))|]. intros s Hs. unfold parse_body.
  pose proof (proj2 Hev s Hs) as Q. destruct (ev s) as [r s1]. destruct r; try exact Q.
  destruct (f v); [|apply E_wrapper]; exact I.
Qed.

Lemma map_errs f : errs (map_body ev f).
Proof.
  split; [exact (map_rel keepsI ev f (proj1 Hev))|]. intros s Hs. unfold map_body.
  pose proof (proj2 Hev s Hs) as Q. destruct (ev s) as [r s1]. destruct r; exact Q.
Qed.

Lemma hide_errs : errs (hide_body ev).
Proof.
  split; [exact (hide_rel keepsI ev (proj1 Hev))|]. intros s Hs. unfold hide_body.
  pose proof (proj2 Hev s Hs) as Q. destruct (ev s) as [r s1]. destruct r; try exact Q.
  destruct m; try exact Q. apply E_wrapper. reflexivity.
Qed.

Lemma adjacent_errs fi : errs (eval_adjacent ev fi).
Proof.
  split; [exact (adjacent_rel keepsI keepsI_ok I_scope ev fi (proj1 Hev))|]. intros s Hs.
  pose proof (eval_adjacent_cases ev fi s) as C. destruct (eval_adjacent ev fi s) as [[v|e|w|] s']; try exact I.
  destruct C as (t & [(it & _ & -> & _)|(ta & W & Ev)] & _); [apply E_missing, Hs|].
  apply (errs_at ev ta _ _ Hev (window_rel keepsI I_scope s ta W Hs) Ev).
Qed.
End Wrappers.

Lemma or_errs eva evb : errs eva -> errs evb -> errs (or_body eva evb).
Proof.
  intros Ha Hb. split; [apply or_rel; [exact keepsI_ok|apply Ha|apply Hb]|]. intros s Hs.
  pose proof (proj2 Ha s Hs) as Qa. pose proof (proj2 Hb s Hs) as Qb. rewrite or_body_eq.
  destruct (halts (fst (eva s))); [exact Qa|]. destruct (halts (fst (evb s))); [exact Qb|].
  destruct (this_or_that _ _ s _ _) as [d s'] eqn:T. apply this_or_that_cases in T. cbn [fst].
  destruct d as [[|]|e]; [exact Qa|exact Qb|]. cbn [or_pick err_ok].
  destruct (fst (eva s)) as [va|ea|wa|], (fst (evb s)) as [vb|eb|wb|]; cbn [err_of] in T;
    destruct T as [[T _]|[[T _]|(ea' & eb' & Ta & Tb & -> & _)]]; try discriminate; try (inv T; assumption).
  inv Ta. inv Tb. apply E_combine; assumption.
Qed.

Lemma con_go_errs ff evs : Forall errs evs -> forall s first acc err,
  Inv s -> match err with Some e => E e | None => True end -> err_ok (fst (con_go ff evs s first acc err)).
Proof.
  induction 1 as [|ev t Hev _ IH]; intros s first acc err Hs He; cbn [con_go].
  - destruct err; [exact He|exact I].
  - destruct (ev s) as [r s1] eqn:Ev. destruct (errs_at ev s r s1 Hev Hs Ev) as [Q K].
    destruct r; try exact I.
    + apply IH; assumption.
    + destruct (ff && first); [exact Q|]. apply IH; [exact K|]. destruct err; [exact He|exact Q].
Qed.

Lemma con_errs ff evs : Forall errs evs -> errs (con_body ff evs).
Proof.
  intros H. split.
  - apply con_rel; [exact keepsI_ok|]. eapply Forall_impl; [|exact H]. intros ev Hev. apply Hev.
  - intros s Hs. unfold con_body, con_reset. pose proof (con_go_errs ff evs H s true [] None Hs I) as Q.
    destruct (con_go ff evs s true [] None) as [r s1]. exact Q.
Qed.

Lemma level_ok_eres r : level_ok r -> err_ok (eres_of r).
Proof. destruct r; exact (fun H => H). Qed.

Lemma cmd_errs name aliases shorts help adjacent m i run :
  (forall s, Inv s -> Inv (snd (take_cmd_any ((name :: aliases) ++ map utf8_encode_char shorts) s))) ->
  errs_run run -> errs (cmd_body name aliases shorts help adjacent m i run).
Proof.
  intros Hn Hrun. split; [exact (cmd_rel keepsI keepsI_ok I_scope I_path name aliases shorts help adjacent m i run Hn (proj1 Hrun))|].
  intros s Hs. rewrite cmd_body_eq. specialize (Hn s Hs).
  destruct (take_cmd_any _ s) as [[|] s1]; cbn [fst snd] in *; [|apply E_missing, Hn].
  destruct (cmd_entered name s1) as [s3|] eqn:Ee; [|exact I].
  pose proof (cmd_entered_rel keepsI keepsI_ok I_scope I_path name s1 s3 Ee Hn) as H3.
  destruct adjacent; [|apply level_ok_eres, Hrun, H3].
  pose proof (cmd_adjacent_cases run s3) as C. destruct (cmd_adjacent run s3) as [[v|e|w|] s']; try exact I.
  destruct C as (w & f & W & Er & ->). pose proof (proj2 Hrun w (window_rel keepsI I_scope s3 w W H3)) as Q. rewrite Er in Q. exact Q.
Qed.

Theorem eval_errs env (A : parser -> Prop) (B : oparser -> Prop) :
  (forall n p a, A (PFlag n p a) -> errs (eval_flag env n p a)) ->
  (forall n mv ty adj, A (PArg n mv ty adj) -> errs (eval_arg env n mv ty adj)) ->
  (forall mv ty pos help, A (PPos mv ty pos help) -> errs (eval_pos mv ty pos help)) ->
  (forall mv help check anywhere, A (PAny mv help check anywhere) -> errs (eval_any mv help check anywhere)) ->
  (forall name aliases shorts help adjacent sub, A (PCmd name aliases shorts help adjacent sub) ->
     forall s, Inv s -> Inv (snd (take_cmd_any ((name :: aliases) ++ map utf8_encode_char shorts) s))) ->
  (forall q inf, B (Options q inf) -> errs (eval env q) -> errs_run (run_sub env (Options q inf))) ->
  (forall p, every A B p -> errs (eval env p)) /\
  (forall ps, every_l A B ps -> Forall errs (evals env ps)) /\
  (forall o, every_o A B o -> errs_run (run_sub env o)).
Proof.
  intros Hflag Harg Hpos Hany Hnames Hrun.
  apply (eval_closed env A B errs errs_run); auto using con_errs, or_errs, optional_errs, many_errs, some_errs,
    count_errs, last_errs, fallback_with_errs, guard_errs, parse_errs, map_errs, hide_errs.
  - intros name aliases shorts help adjacent sub Ha Hsub. apply cmd_errs; [|exact Hsub]. exact (Hnames _ _ _ help adjacent sub Ha).
  - intros fields _ Hf. apply adjacent_errs, con_errs, Hf.
  - intros v. split; [apply pure_rel, keepsI_ok|intros s _; exact I].
  - intros r. split; [apply pure_with_rel, keepsI_ok|]. intros s _. destruct r; [exact I|apply E_wrapper; exact I].
  - intros msg. split; [apply fail_rel, keepsI_ok|]. intros s _. apply E_wrapper. exact I.
Qed.
End Err.

(* only a subcommand level makes a ready-made failure; the primitives, and the wrappers, report messages of their own *)
Definition not_failure (m : message) : Prop := forall f, m <> MsgParseFailure f.
Definition plain (r : eres) : Prop := forall f, r <> RErr (MsgParseFailure f).

Lemma plain_ok v : plain (ROk v).
Proof. intros f; discriminate. Qed.
Lemma plain_panic w : plain (RPanic w).
Proof. intros f; discriminate. Qed.
Lemma plain_fuel : plain RFuel.
Proof. intros f; discriminate. Qed.
Lemma plain_err m : not_failure m -> plain (RErr m).
Proof. intros H f E. injection E as ->. exact (H f eq_refl). Qed.

Lemma plain_err_ok (E : message -> Prop) r : (forall m, not_failure m -> E m) -> plain r -> err_ok E r.
Proof. intros HE H. destruct r; cbn; auto. apply HE. intros f ->. exact (H f eq_refl). Qed.

Lemma err_ok_plain r : err_ok not_failure r -> plain r.
Proof. intros H f ->. exact (H f eq_refl). Qed.

Lemma combine_with_pf e1 e2 f :
  combine_with e1 e2 = MsgParseFailure f -> e1 = MsgParseFailure f \/ e2 = MsgParseFailure f.
Proof. destruct (combine_with_cases e1 e2) as [->|[->|(x & y & _ & _ & ->)]]; auto. discriminate. Qed.

Lemma not_failure_msgs_ok Inv : msgs_ok Inv not_failure.
Proof.
  split.
  - intros m H f ->. exact H.
  - intros a b Ha Hb f E. apply combine_with_pf in E. destruct E as [-> | ->]; [exact (Ha f eq_refl)|exact (Hb f eq_refl)].
  - intros it s _ f. discriminate.
Qed.

Section Plain.
Variable env : bytes -> option bytes.

Lemma convert_res_plain ty w s : plain (fst (convert_res ty w s)).
Proof. unfold convert_res. destruct (convert ty w); intros f; discriminate. Qed.

Lemma eval_flag_plain n p a s : plain (fst (eval_flag env n p a s)).
Proof.
  unfold eval_flag, missing_msg. destruct (take_flag n s); [apply plain_ok|].
  destruct (env_first env (n_env n)); [apply plain_ok|]. destruct a; [apply plain_ok|].
  destruct (flag_item n); [intros f; discriminate|]. destruct (n_env n); intros f; discriminate.
Qed.

Lemma eval_arg_plain n mv ty adj s : plain (fst (eval_arg env n mv ty adj s)).
Proof.
  unfold eval_arg, missing_msg. destruct (take_arg n adj s); try apply convert_res_plain; try (intros f; discriminate).
  destruct (env_first env (n_env n)); [apply convert_res_plain|].
  destruct (arg_item n mv); [intros f; discriminate|]. destruct (n_env n); intros f; discriminate.
Qed.

Lemma eval_pos_plain mv ty pos help s : plain (fst (eval_pos mv ty pos help s)).
Proof.
  unfold eval_pos, missing_msg. destruct (take_positional_word s) as [[[[ix st] w] s']|]; [|intros f; discriminate].
  destruct pos, st; try apply convert_res_plain; intros f; discriminate.
Qed.

Lemma eval_any_plain mv help check anywhere s : plain (fst (eval_any mv help check anywhere s)).
Proof.
  unfold eval_any, missing_msg.
  match goal with |- context [match ?f with Some ix => _ | None => _ end] => destruct f as [ix|] end; [|intros f; discriminate].
  destruct (nth_error (items s) ix) as [a|]; [|intros f; discriminate].
  destruct (check (arg_os a)); intros f; discriminate.
Qed.
End Plain.

Lemma plain_errs Inv (E : message -> Prop) ev :
  (forall m, not_failure m -> E m) -> respects (keepsI Inv) ev -> (forall s, plain (fst (ev s))) -> errs Inv E ev.
Proof. intros HE K H. split; [exact K|]. intros s _. apply plain_err_ok; [exact HE|apply H]. Qed.

Theorem eval_errs_plain Inv E env (A : parser -> Prop) (B : oparser -> Prop) :
  inv_ok Inv -> msgs_ok Inv E -> (forall m, not_failure m -> E m) ->
  (forall n p a, A (PFlag n p a) -> respects (keepsI Inv) (eval_flag env n p a)) ->
  (forall n mv ty adj, A (PArg n mv ty adj) -> respects (keepsI Inv) (eval_arg env n mv ty adj)) ->
  (forall mv ty pos help, A (PPos mv ty pos help) -> respects (keepsI Inv) (eval_pos mv ty pos help)) ->
  (forall mv help check anywhere, A (PAny mv help check anywhere) -> respects (keepsI Inv) (eval_any mv help check anywhere)) ->
  (forall name aliases shorts help adjacent sub, A (PCmd name aliases shorts help adjacent sub) ->
     forall s, Inv s -> Inv (snd (take_cmd_any ((name :: aliases) ++ map utf8_encode_char shorts) s))) ->
  (forall q inf, B (Options q inf) -> errs Inv E (eval env q) -> errs_run Inv E (run_sub env (Options q inf))) ->
  (forall p, every A B p -> errs Inv E (eval env p)) /\
  (forall ps, every_l A B ps -> Forall (errs Inv E) (evals env ps)) /\
  (forall o, every_o A B o -> errs_run Inv E (run_sub env o)).
Proof.
  intros HI HM HE Hflag Harg Hpos Hany Hnames Hrun. apply (eval_errs Inv E HI HM env A B); try assumption.
  - intros n p a Ha. apply (plain_errs Inv E _ HE (Hflag n p a Ha)). intros s. apply eval_flag_plain.
  - intros n mv ty adj Ha. apply (plain_errs Inv E _ HE (Harg n mv ty adj Ha)). intros s. apply eval_arg_plain.
  - intros mv ty pos help Ha. apply (plain_errs Inv E _ HE (Hpos mv ty pos help Ha)). intros s. apply eval_pos_plain.
  - intros mv help check anywhere Ha. apply (plain_errs Inv E _ HE (Hany mv help check anywhere Ha)). intros s. apply eval_any_plain.
Qed.
