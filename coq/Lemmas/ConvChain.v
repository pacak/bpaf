(* ConvChain.v -- C01, a level that goes on into a subcommand.  The command step narrows the scope to
   what follows the command word (the simulation relation of AbsSim allows any scope start); the
   scan attributes a prefix of the line to the level and stops at the command word; the tokens
   behind it belong to deeper levels and are inert for the items of this one.  Also the condition on
   chains of subcommands (each level offers one) and its decidability; the theorem is in ConvTree.v. *)
From BpafModel Require Import Conv.
From BpafLemmas Require Import Tac Find Reach Ledger ConvLaws AbsSim ConvRefine.
Import ListNotations.

Lemma view_from_head ix its sts i x rest :
  view_from ix its sts = (i, x) :: rest ->
  ix <= i /\ above i rest /\
  exists k, i = ix + k /\
    view_from i (skipn k its) (skipn k sts) = (i, x) :: rest.
Proof.
  revert ix sts. induction its as [|a t IH]; intros ix [|st sts] H; cbn in H; try discriminate.
  destruct (present st) eqn:P; cbn in H.
  - inversion H; subst. split; [lia|]. split.
    + intros p Hp. apply view_from_lb in Hp. lia.
    + exists 0. split; [lia|]. cbn [skipn view_from]. rewrite P. reflexivity.
  - destruct (IH (S ix) sts H) as (Hle & Hab & k & -> & E). split; [lia|]. split; [exact Hab|].
    exists (S k). split; [lia|]. cbn [skipn]. replace (ix + S k) with (S ix + k) by lia. exact E.
Qed.

Lemma skipn_skipn {A} a b (l : list A) : skipn a (skipn b l) = skipn (b + a) l.
Proof.
  revert l. induction b as [|b IH]; intros l; [reflexivity|]. destruct l as [|x t]; cbn; [destruct a; reflexivity|]. apply IH.
Qed.

(* ParseCommand::eval after a hit: the first live item is consumed as the command word and the scope
   narrows to what follows it *)
Lemma enter_sim n s i a rest k :
  Sim n s ((i, a) :: rest) ->
  let s1 := set_current (sremove k i s) (Some i) in
  exists s2, set_scope s1 i (sc_end s1) = Some s2 /\ Sim n s2 rest /\ path s2 = path s.
Proof.
  intros HS s1.
  assert (Hin : In (i, a) ((i, a) :: rest)) by (left; reflexivity).
  pose proof (proj1 (view_in _ _ _ _ _ HS) Hin) as (Hle & Ha & Hp).
  unfold present_at in Hp. destruct (ist_at s i) as [st|] eqn:Es; [|discriminate]. cbn in Hp. inversion Hp as [Hp'].
  assert (Hi : i < n) by (rewrite <- (sim_items _ _ _ HS); apply nth_error_Some; congruence).
  assert (Hsc : in_scope s i = true).
  { unfold in_scope. rewrite (sim_end _ _ _ HS). apply andb_true_intro. split; [apply Nat.leb_le; lia|apply Nat.ltb_lt; lia]. }
  subst s1. unfold sremove. rewrite Hsc, Es, Hp'. cbn [andb set_current].
  unfold set_scope, set_current. cbn [sc_end ist items current remaining path sc_start log].
  rewrite (sim_end _ _ _ HS). rewrite update_nth_length, (sim_ist _ _ _ HS).
  assert (Hc : Nat.leb i n && Nat.leb n n = true) by (apply andb_true_intro; split; apply Nat.leb_le; lia).
  rewrite Hc. eexists. split; [reflexivity|]. split; [|reflexivity].
  pose proof (sim_view _ _ _ HS) as Hv. unfold view in Hv.
  destruct (view_from_head _ _ _ _ _ _ Hv) as (_ & Hab & k0 & Ek & E).
  rewrite !skipn_skipn in E. replace (sc_start s + k0) with i in E by lia.
  assert (Es' : nth_error (skipn i (ist s)) 0 = Some st).
  { rewrite nth_error_skipn. rewrite Nat.add_0_r. exact Es. }
  destruct (view_from_remove i (skipn i (items s)) (skipn i (ist s)) 0 st Es' Hp'
              ltac:(rewrite !skipn_length; rewrite (sim_ist _ _ _ HS), (sim_items _ _ _ HS); lia)) as [E1 E2].
  rewrite Nat.add_0_r in E1. rewrite E in E1. rewrite (aremove_head i a rest Hab) in E1.
  assert (Vn : view_from i (skipn i (items s)) (skipn i (update_nth i Parsed (ist s))) = rest).
  { rewrite skipn_update by lia. rewrite Nat.sub_diag. exact E1. }
  constructor; cbn.
  - exact (sim_items _ _ _ HS).
  - rewrite update_nth_length. exact (sim_ist _ _ _ HS).
  - lia.
  - reflexivity.
  - unfold view. cbn. exact Vn.
  - rewrite <- Vn. rewrite <- (sim_items _ _ _ HS).
    apply count_present_view. rewrite update_nth_length, (sim_ist _ _ _ HS), (sim_items _ _ _ HS). reflexivity.
Qed.

Lemma first_item_head n s i a rest : Sim n s ((i, a) :: rest) -> first_item_ix s = Some i.
Proof. intros HS. unfold first_item_ix. rewrite (find_item_view n s _ (fun _ => true) HS). reflexivity. Qed.

(* take_cmd_any tries the names in order against the first live token; a miss only resets `current` *)
Lemma take_cmd_any_sim n names : forall s l, Sim n s l ->
  exists s0, Sim n s0 l /\ path s0 = path s /\
    match l with
    | (i, a) :: _ =>
      match find (fun w => is_cmd w a) names with
      | Some w => take_cmd_any names s = (true, set_current (sremove (KCmd w) i s0) (Some i))
      | None => take_cmd_any names s = (false, s0)
      end
    | [] => take_cmd_any names s = (false, s0)
    end.
Proof.
  induction names as [|nm t IH]; intros s l HS; cbn [take_cmd_any find].
  - exists s. split; [exact HS|]. split; [reflexivity|]. destruct l as [|[i a] rest]; reflexivity.
  - rewrite take_cmd_eq.
    destruct (IH (set_current s None) l (set_current_sim _ _ _ _ HS)) as (s0 & S0 & P0 & H0).
    destruct l as [|[i a] rest].
    + rewrite (first_item_nil n s HS). exists s0. auto.
    + rewrite (first_item_head n s i a rest HS).
      rewrite (proj1 (proj2 (proj1 (view_in _ _ _ _ _ HS) (or_introl eq_refl)))).
      destruct (is_cmd nm a).
      * exists s. split; [exact HS|]. split; reflexivity.
      * exists s0. auto.
Qed.

Section Cmd.
Variable env : bytes -> option bytes.
Variable n : nat.

(* a command of a conventional level, on a state whose live tokens are l: it is entered exactly if
   the first token is one of its names, and then its parser runs on what follows, one level deeper *)
Lemma cmd_sim name aliases q inf s l :
  Sim n s l ->
  match l with
  | (i, a) :: rest =>
    if existsb (fun w => is_cmd w a) (name :: aliases) then
      exists s3, Sim n s3 rest /\ path s3 = path s ++ [name] /\
        eval env (PCmd name aliases [] None false (Options q inf)) s = lift_run (run_sub env (Options q inf) s3)
    else exists e s1, eval env (PCmd name aliases [] None false (Options q inf)) s = (RErr e, s1) /\ path s1 = path s
  | [] => exists e s1, eval env (PCmd name aliases [] None false (Options q inf)) s = (RErr e, s1) /\ path s1 = path s
  end.
Proof.
  intros HS. rewrite eval_PCmd, cmd_body_eq. cbn [map app]. rewrite app_nil_r.
  destruct (take_cmd_any_sim n (name :: aliases) s l HS) as (s0 & S0 & P0 & Ht).
  destruct l as [|[i a] rest]; [rewrite Ht; eauto|].
  destruct (find (fun w => is_cmd w a) (name :: aliases)) as [w|] eqn:F.
  - destruct (find_some _ _ F) as [Hin Hw].
    assert (E : existsb (fun w => is_cmd w a) (name :: aliases) = true) by (apply existsb_exists; eauto). rewrite E, Ht.
    destruct (enter_sim n s0 i a rest (KCmd w) S0) as (s2 & Es2 & S2 & P2). cbn zeta in Es2.
    unfold cmd_entered. cbn [current set_current]. rewrite Es2.
    exists (set_path s2 (path s2 ++ [name])). split; [destruct S2; constructor; auto|].
    split; [cbn; rewrite P2, P0; reflexivity|reflexivity].
  - assert (E : existsb (fun w => is_cmd w a) (name :: aliases) = false).
    { destruct (existsb _ _) eqn:E; [|reflexivity]. apply existsb_exists in E. destruct E as (w & Hin & Hw).
      rewrite (find_none _ _ F w Hin) in Hw. discriminate. }
    rewrite E, Ht. eauto.
Qed.
End Cmd.

Definition foreign_tag (l : lv) : tl3 := map (fun p => (fst p, snd p, RMark)) l.

Section ScanCmd.
Variable items : list citem.
Variable anc : list citem.
Variable cs : clist.

Definition scan_cmd_good (ix : nat) (pre : list (arg * bool)) (a : attribution) : Prop :=
  let t := tag_from ix pre (at_roles a) in
  WF items ix t /\ occs_of t = at_occ a /\ untag t = live_from ix pre /\
  (forall x, In x t -> exists j, snd x = RKey j \/ snd x = RVal j).

Lemma scan_good_named tail ix pre a :
  (forall ps, tail <> TPos ps) -> scan_good items tail ix pre a -> scan_cmd_good ix pre a.
Proof.
  intros Ht (W & Ho & _ & Hu & Hr). repeat split; auto. intros x Hx. exact (role_ok_named tail _ Ht (Hr x Hx)).
Qed.

Lemma scan_cmd_wf ts ix a sub rest :
  scan items anc (TCmds cs) ts = ScCmd a sub rest ->
  exists pre w, ts = pre ++ (Word w, false) :: rest /\ find_cmd cs w = Some sub /\ scan_cmd_good ix pre a.
Proof.
  intros H. destruct (scan_cmd_decomp items anc _ ts ix a sub rest H) as (pre & w & cs' & -> & Et & Fc & G).
  inversion Et; subst cs'. exists pre, w. split; [reflexivity|]. split; [exact Fc|].
  apply (scan_good_named (TCmds cs)); [discriminate|exact G].
Qed.
End ScanCmd.

Lemma live_from_app ts1 : forall ix ts2,
  live_from ix (ts1 ++ ts2) = live_from ix ts1 ++ live_from (ix + length ts1) ts2.
Proof.
  induction ts1 as [|[a m] r IH]; intros ix ts2; cbn [app live_from length].
  - rewrite Nat.add_0_r. reflexivity.
  - rewrite IH. rewrite <- app_assoc. replace (S ix + length r) with (ix + S (length r)) by lia. reflexivity.
Qed.

Lemma live_from_lb ts : forall ix p, In p (live_from ix ts) -> ix <= fst p.
Proof.
  induction ts as [|[a m] r IH]; intros ix p Hp; cbn in Hp; [contradiction|].
  apply in_app_or in Hp. destruct Hp as [Hp|Hp].
  - destruct m; [contradiction|]. destruct Hp as [<-|[]]. cbn. lia.
  - apply IH in Hp. lia.
Qed.

Lemma live_from_tok ts : forall ix p, In p (live_from ix ts) -> In (snd p, false) ts.
Proof.
  induction ts as [|[a m] r IH]; intros ix p Hp; cbn in Hp; [contradiction|].
  apply in_app_or in Hp. destruct Hp as [Hp|Hp].
  - destruct m; [contradiction|]. destruct Hp as [<-|[]]. left. reflexivity.
  - right. eapply IH. exact Hp.
Qed.

Section Foreign.
Variable items : list citem.

Definition inert (a : arg) : Prop := forall it, In it items -> matches_arg (item_named it) false a = false.

Lemma WF_foreign_live ts : forall ix,
  (forall a, In (a, false) ts -> inert a) -> WF items ix (foreign_tag (live_from ix ts)).
Proof.
  induction ts as [|[a m] r IH]; intros ix Hi; cbn [live_from foreign_tag map app]; [constructor|].
  destruct m; cbn [app map fst snd].
  - apply (WF_weaken items (S ix) ix); [lia|]. apply IH. intros b Hb. apply Hi. right. exact Hb.
  - apply WF_foreign; [lia|apply Hi; left; reflexivity|]. apply IH. intros b Hb. apply Hi. right. exact Hb.
Qed.

Lemma occs_foreign l : occs_of (foreign_tag l) = [].
Proof. induction l as [|[i a] t IH]; cbn; [reflexivity|exact IH]. Qed.

(* a block of foreign tokens behind a well-formed line: the line stays well formed and holds the same occurrences *)
Lemma WF_app_foreign lo t1 l2 hi :
  WF items lo t1 -> lo <= hi -> (forall x, In x (untag t1) -> fst x < hi) -> WF items hi (foreign_tag l2) ->
  WF items lo (t1 ++ foreign_tag l2) /\ occs_of (t1 ++ foreign_tag l2) = occs_of t1.
Proof.
  intros W. induction W as [lo|lo i a k it t Hl Hk Ho Ha W IH|lo i a k it b w t Hl Hk Ho Ha Hv W IH|lo i a t Hl Hw W IH|lo i a t Hl Hfo W IH];
    intros Hle Hb W2; cbn [app].
  - split; [eapply WF_weaken; eauto|apply occs_foreign].
  - destruct IH as [IW IO]; [specialize (Hb (i, a) (or_introl eq_refl)); cbn in Hb; lia|intros x Hx; apply Hb; right; exact Hx|exact W2|].
    split; [eapply WF_flag; eauto|]. rewrite (occs_flag items i a k _ IW), (occs_flag items i a k _ W), IO. reflexivity.
  - destruct IH as [IW IO]; [specialize (Hb (S i, b) (or_intror (or_introl eq_refl))); cbn in Hb; lia|intros x Hx; apply Hb; right; right; exact Hx|exact W2|].
    split; [eapply WF_arg; eauto|]. cbn [occs_of]. rewrite IO. reflexivity.
  - destruct IH as [IW IO]; [specialize (Hb (i, a) (or_introl eq_refl)); cbn in Hb; lia|intros x Hx; apply Hb; right; exact Hx|exact W2|].
    split; [apply WF_word; auto|exact IO].
  - destruct IH as [IW IO]; [specialize (Hb (i, a) (or_introl eq_refl)); cbn in Hb; lia|intros x Hx; apply Hb; right; exact Hx|exact W2|].
    split; [apply WF_foreign; auto|exact IO].
Qed.

Lemma untag_foreign l : untag (foreign_tag l) = l.
Proof. unfold untag, foreign_tag. rewrite map_map. cbn. induction l as [|[i a] t IH]; cbn; [reflexivity|]. rewrite IH. reflexivity. Qed.

Lemma filter_keep_foreign k l : filter (keep k) (foreign_tag l) = foreign_tag l.
Proof. apply filter_all. intros x Hx. unfold foreign_tag in Hx. apply in_map_iff in Hx. destruct Hx as (p & <- & _). reflexivity. Qed.

(* once every item of the level is done, only the foreign block is left of a keys-and-values prefix *)
Lemma filter_prefix_gone lo t :
  WF items lo t -> (forall x, In x t -> exists j, snd x = RKey j \/ snd x = RVal j) ->
  filter (keep (length items)) t = [].
Proof.
  intros W. induction W as [lo|lo i a k it t Hl Hk Ho Ha W IH|lo i a k it b w t Hl Hk Ho Ha Hv W IH|lo i a t Hl Hw W IH|lo i a t Hl Hfo W IH];
    intros Hr; cbn [filter keep snd].
  - reflexivity.
  - destruct (find_owner_spec items a 0 k it Ho) as (_ & Hn & _). rewrite Nat.sub_0_r in Hn. apply nth_error_Some_lt in Hn.
    assert (K : Nat.leb (length items) k = false) by (apply Nat.leb_gt; exact Hn). rewrite K.
    apply IH. intros y Hy. apply Hr. right. exact Hy.
  - destruct (find_owner_spec items a 0 k it Ho) as (_ & Hn & _). rewrite Nat.sub_0_r in Hn. apply nth_error_Some_lt in Hn.
    assert (K : Nat.leb (length items) k = false) by (apply Nat.leb_gt; exact Hn). rewrite K.
    apply IH. intros y Hy. apply Hr. right. right. exact Hy.
  - destruct (Hr _ (or_introl eq_refl)) as [j [Hj|Hj]]; discriminate.
  - destruct (Hr _ (or_introl eq_refl)) as [j [Hj|Hj]]; discriminate.
Qed.
End Foreign.

Fixpoint chain_ok (l : level) : Prop :=
  match l with
  | Level items tail =>
    match tail with
    | TCmds (CCons name aliases sub CNil) =>
      disjoint_names items /\ Forall (fun it => named_ok (item_named it) = true) items /\ 1 <= length items /\
      chain_ok sub /\
      (forall it it' a, In it items -> In it' (all_items sub) ->
                        matches_arg (item_named it) false a = true -> matches_arg (item_named it') false a = true -> False)
    | TCmds _ => False
    | _ => flat_ok items tail
    end
  end.

Lemma live_from_ub ts : forall ix p, In p (live_from ix ts) -> fst p < ix + length ts.
Proof.
  induction ts as [|[a m] r IH]; intros ix p Hp; cbn in Hp; [contradiction|].
  apply in_app_or in Hp. destruct Hp as [Hp|Hp].
  - destruct m; [contradiction|]. destruct Hp as [<-|[]]. cbn. lia.
  - apply IH in Hp. cbn [length]. lia.
Qed.

Lemma evals_plist env l : evals env (plist_of l) = map (eval env) l.
Proof. induction l as [|p t IH]; cbn [plist_of map]; [reflexivity|]. rewrite evals_cons, IH. reflexivity. Qed.

Lemma items_sim env n items :
  Forall (fun it => named_ok (item_named it) = true) items ->
  Forall2 (sim_ev n) (map (eval env) (map compile_item items)) (map (aeval (S (S n))) (map compile_item items)).
Proof.
  induction 1 as [|it t Hit Ht IH]; cbn [map]; constructor; [|exact IH].
  apply eval_sim. apply flatp_item. exact Hit.
Qed.

(* the attributed prefix, then the command word and what follows it as a block foreign to the level *)
Lemma prefix_tagged items ix pre a w rest :
  scan_cmd_good items ix pre a -> (forall b, In (b, false) rest -> inert items b) ->
  let tp := tag_from ix pre (at_roles a) in
  let F := foreign_tag (live_from (ix + length pre) ((Word w, false) :: rest)) in
  WF items ix (tp ++ F) /\ live_from ix (pre ++ (Word w, false) :: rest) = untag (tp ++ F) /\
  occs_of (tp ++ F) = at_occ a /\ filter (keep (length items)) (tp ++ F) = F.
Proof.
  intros (W & Ho & Hu & Hr) Hin tp F. set (j := ix + length pre) in *.
  assert (Hinert : forall b, In (b, false) ((Word w, false) :: rest) -> inert items b).
  { intros b [E|Hb]; [inversion E; subst b; intros it _; reflexivity|exact (Hin b Hb)]. }
  assert (WFf : WF items j F) by (apply WF_foreign_live; exact Hinert).
  assert (Hub : forall x, In x (untag tp) -> fst x < j).
  { intros x Hx. unfold tp in Hx. rewrite Hu in Hx. apply live_from_ub in Hx. exact Hx. }
  destruct (WF_app_foreign items ix tp _ j W ltac:(unfold j; lia) Hub WFf) as [W0 Ho0]. fold F in W0, Ho0.
  split; [exact W0|].
  split.
  { rewrite live_from_app. unfold untag. rewrite map_app. fold (untag tp). fold (untag F). unfold tp at 1. rewrite Hu.
    unfold F. rewrite untag_foreign. reflexivity. }
  split; [rewrite Ho0; exact Ho|].
  rewrite filter_app, (filter_prefix_gone items ix tp W Hr). unfold F. rewrite filter_keep_foreign. reflexivity.
Qed.

Lemma prefix_run items (Hdis : disjoint_names items) n ix pre a w rest vs :
  scan_cmd_good items ix pre a -> (forall b, In (b, false) rest -> inert items b) ->
  length (pre ++ (Word w, false) :: rest) <= n ->
  items_values items 0 (at_occ a) = Some vs ->
  arun (map (aeval (S (S n))) (map compile_item items)) (live_from ix (pre ++ (Word w, false) :: rest)) =
  Some (vs, (ix + length pre, Word w) :: live_from (S (ix + length pre)) rest).
Proof.
  intros G Hin Hlen Ev. destruct (prefix_tagged items ix pre a w rest G Hin) as (W0 & Hlive & Ho0 & Hfil).
  cbn zeta in *. set (t0 := tag_from ix pre (at_roles a) ++ foreign_tag _) in *.
  assert (Hl0 : length t0 < S (S n)).
  { rewrite <- (untag_length t0), <- Hlive. pose proof (live_from_le (pre ++ (Word w, false) :: rest) ix). lia. }
  pose proof (items_run items Hdis (S (S n)) ix t0 W0 Hl0 items 0 vs (fun p it H => H)) as Hrun.
  rewrite Ho0 in Hrun. specialize (Hrun Ev). cbn [Nat.add] in Hrun. rewrite filter_keep_0, Hfil, <- Hlive in Hrun.
  rewrite untag_foreign in Hrun. exact Hrun.
Qed.

Lemma eval_fields_last env (ps : list parser) (c : parser) s : 1 <= length ps ->
  eval env (PCon (plist_of (ps ++ [c]))) s = con_body false (map (eval env) ps ++ [eval env c]) s.
Proof.
  intros H. destruct ps as [|p1 ps']; [cbn in H; lia|]. cbn [app].
  destruct (ps' ++ [c]) as [|p2 r] eqn:E; [destruct ps'; discriminate|].
  cbn [plist_of]. rewrite eval_PCon_many. change (PCons p1 (PCons p2 (plist_of r))) with (plist_of (p1 :: p2 :: r)).
  rewrite evals_plist, <- E. cbn [map]. rewrite map_app. reflexivity.
Qed.

Lemma share_false_no_common a b x :
  share a b = false -> matches_arg a false x = true -> matches_arg b false x = true -> False.
Proof. intros Hs Ma Mb. rewrite (share_match a b x Ma Mb) in Hs. discriminate. Qed.

Fixpoint chain_okb_sound (l : level) : chain_okb l = true -> chain_ok l.
Proof.
  destruct l as [items tail]. destruct tail as [|ps|cs]; cbn [chain_okb chain_ok].
  - apply flat_okb_sound.
  - apply flat_okb_sound.
  - destruct cs as [|name aliases sub rest]; [discriminate|]. destruct rest; [|discriminate].
    intros H. apply andb_prop in H. destruct H as [H H5]. apply andb_prop in H. destruct H as [H H4].
    apply andb_prop in H. destruct H as [H H3]. apply andb_prop in H. destruct H as [H1 H2].
    split; [apply disjointb_sound; exact H1|]. split; [apply Forall_forall; rewrite forallb_forall in H2; exact H2|].
    split; [apply Nat.leb_le; exact H3|]. split; [apply (chain_okb_sound sub); exact H4|].
    intros it it' a Hit Hit' Ma Mb. rewrite forallb_forall in H5. specialize (H5 it Hit).
    rewrite forallb_forall in H5. specialize (H5 it' Hit'). apply negb_true_iff in H5.
    eapply share_false_no_common; eauto.
Qed.
