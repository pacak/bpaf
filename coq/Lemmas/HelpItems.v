(* HelpItems.v -- C12: the items --help lists are exactly the visible leaves of the command level.
   `vis p` is an independent, direct specification of what a user can pass at this level; the item
   list computed from the metadata (Parser::meta, then HelpItems::append_meta) holds exactly those,
   in order, plus structural markers (group / adjacent-block delimiters and suffixes). *)
From BpafModel Require Import Help.
From BpafLemmas Require Import Tac Closure.
Import ListNotations.

(* Everything that collects from a metadata tree treats And and Or alike and walks their children by a
   nested fix.  Each such function gets a top-level twin over `list meta` and ONE equation
   `f (c xs) = twin xs` (`*_list`) for both list nodes; meta_ind' has the matching single case. *)
Definition list_node (c : list meta -> meta) : Prop := c = MAnd \/ c = MOr.

Section MetaInd.
Variable P : meta -> Prop.
Hypothesis HList : forall c xs, list_node c -> Forall P xs -> P (c xs).
Hypothesis HOpt : forall m, P m -> P (MOptional m).
Hypothesis HReq : forall m, P m -> P (MRequired m).
Hypothesis HAdj : forall m, P m -> P (MAdjacent m).
Hypothesis HItem : forall i, P (MItem i).
Hypothesis HMany : forall m, P m -> P (MMany m).
Hypothesis HSub : forall m d, P m -> P (MSubsection m d).
Hypothesis HSuf : forall m d, P m -> P (MSuffix m d).
Hypothesis HSkip : P MSkip.
Hypothesis HCu : forall m d, P m -> P (MCustomUsage m d).
Hypothesis HStrict : forall m, P m -> P (MStrict m).

Fixpoint meta_ind' (m : meta) : P m :=
  let go := fix go (xs : list meta) : Forall P xs :=
    match xs with
    | [] => Forall_nil P
    | x :: t => Forall_cons x (meta_ind' x) (go t)
    end in
  match m with
  | MAnd xs => HList MAnd xs (or_introl eq_refl) (go xs)
  | MOr xs => HList MOr xs (or_intror eq_refl) (go xs)
  | MOptional x => HOpt x (meta_ind' x)
  | MRequired x => HReq x (meta_ind' x)
  | MAdjacent x => HAdj x (meta_ind' x)
  | MItem i => HItem i
  | MMany x => HMany x (meta_ind' x)
  | MSubsection x d => HSub x d (meta_ind' x)
  | MSuffix x d => HSuf x d (meta_ind' x)
  | MSkip => HSkip
  | MCustomUsage x d => HCu x d (meta_ind' x)
  | MStrict x => HStrict x (meta_ind' x)
  end.
End MetaInd.

Definition is_real (h : helpitem) : bool :=
  match h with
  | HAny _ _ _ | HPositional _ _ | HCommand _ _ _ _ _ | HFlag _ _ _ | HArgument _ _ _ _ => true
  | _ => false
  end.
Definition reals (l : list helpitem) : list helpitem := filter is_real l.

Lemma reals_app a b : reals (a ++ b) = reals a ++ reals b.
Proof. apply filter_app. Qed.

Fixpoint append_all (xs : list meta) (no_ss : bool) (acc : list helpitem) : list helpitem :=
  match xs with
  | [] => acc
  | x :: t => append_all t no_ss (append_go x no_ss acc)
  end.

Lemma append_go_list c xs b acc : list_node c -> append_go (c xs) b acc = append_all xs b acc.
Proof.
  intros [->| ->]; cbn; revert acc; induction xs as [|x t IH]; intros acc; cbn; auto.
Qed.

Lemma append_go_acc m : forall b acc, append_go m b acc = acc ++ append_go m b [].
Proof.
  induction m as [c xs Hc IHxs|m IHm|m IHm|m IHm|i|m IHm|m d IHm|m d IHm| |m d IHm|m IHm] using meta_ind';
    intros b acc.
  - rewrite !(append_go_list c) by exact Hc. revert acc. induction IHxs as [|x t Hx Ht IH]; intros acc; cbn.
    + rewrite app_nil_r. reflexivity.
    + rewrite IH. rewrite (IH (append_go x b [])). rewrite (Hx b acc). rewrite app_assoc. reflexivity.
  - cbn. apply IHm.
  - cbn. apply IHm.
  - cbn. destruct (peek_front_ty m); [|rewrite app_nil_r; reflexivity].
    rewrite IHm. rewrite (IHm b [HAnywhereStart m h]). rewrite <- !app_assoc. reflexivity.
  - cbn. destruct i as [mv a h|mv [h|]|n s h mm ii|n sh e h|n sh mv e h]; cbn; rewrite ?app_nil_r; reflexivity.
  - cbn. apply IHm.
  - cbn. destruct (peek_front_ty m); [|rewrite app_nil_r; reflexivity].
    destruct b.
    + apply IHm.
    + rewrite IHm. rewrite (IHm true [HGroupStart d h]). rewrite <- !app_assoc. reflexivity.
  - cbn. destruct (peek_front_ty m); [|rewrite app_nil_r; reflexivity].
    rewrite IHm. rewrite <- app_assoc. reflexivity.
  - cbn. rewrite app_nil_r. reflexivity.
  - cbn. apply IHm.
  - cbn. apply IHm.
Qed.

Lemma append_all_cons x t b : append_all (x :: t) b [] = append_go x b [] ++ append_all t b [].
Proof.
  cbn [append_all]. generalize (append_go x b []). induction t as [|y t IH]; intros acc; cbn [append_all].
  - rewrite app_nil_r. reflexivity.
  - rewrite IH, (IH (append_go y b [])), (append_go_acc y b acc), app_assoc. reflexivity.
Qed.

Fixpoint meta_items (m : meta) : list helpitem :=
  let all := fix all (xs : list meta) : list helpitem :=
    match xs with [] => [] | x :: t => meta_items x ++ all t end in
  match m with
  | MAnd xs | MOr xs => all xs
  | MOptional x | MRequired x | MAdjacent x | MMany x | MSubsection x _ | MSuffix x _
  | MCustomUsage x _ | MStrict x => meta_items x
  | MItem (IPositional _ None) => []
  | MItem i => [helpitem_of i]
  | MSkip => []
  end.

Fixpoint meta_items_all (xs : list meta) : list helpitem :=
  match xs with [] => [] | x :: t => meta_items x ++ meta_items_all t end.
Lemma meta_items_list c xs : list_node c -> meta_items (c xs) = meta_items_all xs.
Proof. intros [->| ->]; cbn; induction xs as [|x t IH]; cbn; congruence. Qed.

Fixpoint peek_first (xs : list meta) : option hity :=
  match xs with
  | [] => None
  | x :: t => match peek_front_ty x with Some ty => Some ty | None => peek_first t end
  end.
Lemma peek_list c xs : list_node c -> peek_front_ty (c xs) = peek_first xs.
Proof.
  intros [->| ->]; cbn; induction xs as [|x t IH]; cbn; try reflexivity; destruct (peek_front_ty x); auto.
Qed.

(* the converse fails: a positional item without help text has a front type but no entry *)
Lemma peek_none_no_items m : peek_front_ty m = None -> meta_items m = [].
Proof.
  induction m as [c xs Hc IHxs| | | | | | | | | |] using meta_ind'; intros Hp; try (cbn in *; auto; fail).
  - rewrite (peek_list c) in Hp by exact Hc. rewrite (meta_items_list c) by exact Hc.
    induction IHxs as [|x t Hx Ht IH]; cbn in *; [reflexivity|].
    destruct (peek_front_ty x) eqn:E; [discriminate|]. rewrite (Hx eq_refl). cbn. apply IH. exact Hp.
  - cbn in Hp. discriminate.
Qed.

Theorem reals_append_go m : forall b, reals (append_go m b []) = meta_items m.
Proof.
  induction m as [c xs Hc IHxs|m IHm|m IHm|m IHm|i|m IHm|m d IHm|m d IHm| |m d IHm|m IHm] using meta_ind';
    intros b.
  - rewrite (append_go_list c), (meta_items_list c) by exact Hc.
    induction IHxs as [|x t Hx Ht IH]; [reflexivity|].
    rewrite append_all_cons, reals_app, Hx, IH. reflexivity.
  - cbn. apply IHm.
  - cbn. apply IHm.
  - cbn. destruct (peek_front_ty m) eqn:E.
    + rewrite append_go_acc, !reals_app, IHm. cbn. rewrite app_nil_r. reflexivity.
    + symmetry. apply peek_none_no_items. exact E.
  - destruct i as [mv a h|mv [h|]|n s h mm ii|n sh e h|n sh mv e h]; reflexivity.
  - cbn. apply IHm.
  - cbn. destruct (peek_front_ty m) eqn:E.
    + destruct b; [apply IHm|].
      rewrite append_go_acc, !reals_app, IHm. cbn. rewrite app_nil_r. reflexivity.
    + symmetry. apply peek_none_no_items. exact E.
  - cbn. destruct (peek_front_ty m) eqn:E.
    + rewrite reals_app, IHm. cbn. rewrite app_nil_r. reflexivity.
    + symmetry. apply peek_none_no_items. exact E.
  - reflexivity.
  - cbn. apply IHm.
  - cbn. apply IHm.
Qed.

Definition opt_list {A} (o : option A) : list A := match o with Some x => [x] | None => [] end.

Fixpoint vis (p : parser) {struct p} : list helpitem :=
  match p with
  | PFlag n _ _ => map helpitem_of (opt_list (flag_item n))
  | PArg n mv _ _ => map helpitem_of (opt_list (arg_item n mv))
  | PPos mv _ _ help => match help with Some _ => [HPositional mv help] | None => [] end
  | PAny mv help _ anywhere => [HAny mv anywhere help]
  | PCmd name _ shorts help _ sub => [HCommand name (hd_error shorts) help (ometa_of sub) (oinfo_of sub)]
  | PCon fields | PAdj fields => lvis fields
  | POr a b => vis a ++ vis b
  | POptional q _ | PMany q _ | PSome q _ _ | PCollect q _ | PCount q | PLast q
  | PFallback q _ _ | PFallbackWith q _ _ | PGuard q _ _ | PParse q _ | PMap q _
  | PUsage q _ | PGroupHelp q _ | PBoxed q => vis q
  | PHide _ => []                                  (* hidden: never listed *)
  | PPure _ | PPureWith _ | PFail _ => []
  end
with lvis (ps : plist) {struct ps} : list helpitem :=
  match ps with
  | PNil => []
  | PCons q t => vis q ++ lvis t
  end.

Lemma meta_items_alts m : meta_items_all (alts m) = meta_items m.
Proof.
  destruct m; cbn; rewrite ?app_nil_r; try reflexivity;
    try (induction xs as [|x t IH]; cbn; [reflexivity|rewrite IH; reflexivity]).
Qed.

Lemma meta_items_all_app a b : meta_items_all (a ++ b) = meta_items_all a ++ meta_items_all b.
Proof. induction a as [|x t IH]; cbn; [reflexivity|rewrite IH, app_assoc; reflexivity]. Qed.

Lemma meta_items_or_meta a b : meta_items (meta_or a b) = meta_items a ++ meta_items b.
Proof.
  unfold meta_or. rewrite <- (meta_items_alts a), <- (meta_items_alts b), <- meta_items_all_app.
  destruct (alts a ++ alts b) as [|x [|y t]] eqn:E.
  - reflexivity.
  - cbn. rewrite app_nil_r. reflexivity.
  - apply (meta_items_list MOr). right. reflexivity.
Qed.

Lemma meta_items_with_suffix m shown : meta_items (with_suffix m shown) = meta_items m.
Proof. unfold with_suffix. destruct (is_nil shown); reflexivity. Qed.

Theorem meta_items_vis_all :
  (forall p, meta_items (meta_of p) = vis p) /\
  (forall ps, meta_items_all (metas_of ps) = lvis ps /\ meta_items (con_meta ps) = lvis ps).
Proof.
  (* the scheme wants a statement about option levels too; there is none to make *)
  enough (H : (forall p, meta_items (meta_of p) = vis p) /\
              (forall ps, meta_items_all (metas_of ps) = lvis ps /\ meta_items (con_meta ps) = lvis ps) /\
              (forall o : oparser, True)) by (split; apply H).
  (* a wrapper passes the metadata of its argument through, at most adding a suffix, which is no entry;
     pure / fail / hidden parsers have neither metadata nor leaves *)
  apply parser_plist_oparser_ind; intros; cbn [vis lvis meta_of]; rewrite ?meta_items_with_suffix;
    try exact I; try exact H; try reflexivity.
  - (* PFlag *) unfold flag_item. destruct (shortlong_of n) as [sl|]; cbn; [|reflexivity].
    destruct absent; reflexivity.
  - (* PArg *) unfold arg_item. destruct (shortlong_of n) as [sl|]; reflexivity.
  - (* PPos *) destruct pos; destruct help; reflexivity.
  - (* PCon *) apply H.
  - (* PAdj *) apply H.
  - (* POr *) rewrite meta_items_or_meta, H, H0. reflexivity.
  - (* PNil *) split; reflexivity.
  - (* PCons *) destruct H0 as [Ha Hc]. split.
    + cbn [metas_of meta_items_all]. rewrite H, Ha. reflexivity.
    + cbn [con_meta]. match goal with |- context [match ?ps with PNil => _ | PCons _ _ => _ end] => destruct ps as [|q2 t] end.
      * cbn [lvis]. rewrite app_nil_r. exact H.
      * rewrite (meta_items_list MAnd) by (left; reflexivity). cbn [meta_items_all]. rewrite H. f_equal. exact Ha.
Qed.

(* C12: the entries collected for --help are exactly the visible leaves, in declaration order *)
Theorem help_items_exact p b : reals (append_go (meta_of p) b []) = vis p.
Proof. rewrite reals_append_go. apply (proj1 meta_items_vis_all). Qed.

(* hide_usage / custom_usage change the usage line only *)
Theorem usage_only q d acc : append_meta acc (meta_of (PUsage q d)) = append_meta acc (meta_of q).
Proof. reflexivity. Qed.

(* group_help adds delimiters, never entries; and does not hide any *)
Theorem group_help_same_entries q d b : reals (append_go (meta_of (PGroupHelp q d)) b []) = vis q.
Proof. rewrite help_items_exact. reflexivity. Qed.

Theorem hidden_contributes_nothing q b : append_go (meta_of (PHide q)) b [] = [].
Proof. reflexivity. Qed.

(* every name shown belongs to the parser it came from: the first short and the first long name *)
Definition sl_accepted (n : named) (sl : shortlong) : Prop :=
  match sl with
  | SLShort c => matches_arg n false (Short c false []) = true
  | SLLong l => matches_arg n false (Long l false []) = true
  | SLBoth c l => matches_arg n false (Short c false []) = true /\ matches_arg n false (Long l false []) = true
  end.

Lemma shortlong_accepted n sl : shortlong_of n = Some sl -> sl_accepted n sl.
Proof.
  unfold shortlong_of. intros H.
  destruct (n_short n) as [|c cs] eqn:Es; destruct (n_long n) as [|l ls] eqn:El; inversion H; subst;
    cbn; rewrite ?Es, ?El; cbn; rewrite ?N.eqb_refl, ?beqb_refl; cbn; auto.
Qed.

Theorem shown_flag_name_accepted n it :
  flag_item n = Some it ->
  exists sl sh e h, it = IFlag sl sh e h /\ sl_accepted n sl.
Proof.
  unfold flag_item. intros H. destruct (shortlong_of n) as [sl|] eqn:E; [|discriminate].
  inversion H; subst. do 4 eexists. split; [reflexivity|]. apply (shortlong_accepted n sl E).
Qed.

Theorem shown_arg_name_accepted n mv it :
  arg_item n mv = Some it ->
  exists sl sh e h, it = IArgument sl sh mv e h /\ sl_accepted n sl.
Proof.
  unfold arg_item. intros H. destruct (shortlong_of n) as [sl|] eqn:E; [|discriminate].
  inversion H; subst. do 4 eexists. split; [reflexivity|]. apply shortlong_accepted, E.
Qed.
