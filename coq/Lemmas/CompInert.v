(* CompInert.v -- the completion bookkeeping of a build with the `autocomplete` feature is inert when no
   completion was requested: with `comp = None` the evaluator of Model/CompEval.v computes what the evaluator of
   Model/Eval.v computes on the parser with the completer wrappers erased, for every parser, every state and every
   environment, and leaves `comp = None` (property C20; also the base of C14: a run without a request is not
   touched by completers). *)
From BpafLemmas Require Import Tac CompAlways.
From BpafModel Require Import CompEval.

(* one occurrence of y, so that a long plain body is walked through once *)
Definition xnone {A} (y : A * state) : A * xst := (fst y, (snd y, None)).

Definition inert (cev : xevaluator) (ev : evaluator) : Prop := forall s, cev (s, None) = xnone (ev s).
Definition run_inert (crun : xst -> sres * xst) (run : state -> sres * state) : Prop :=
  forall s, crun (s, None) = xnone (run s).

Lemma kswap_None l : kswap None l = (None, l).
Proof. reflexivity. Qed.
Lemma touching_last_None s : touching_last s None = false.
Proof. reflexivity. Qed.

Section Inert.
Variable env : bytes -> option bytes.
Variable docgen : bool.

(* a leaf only appends hints: to no hint list it appends nothing *)
Lemma leaf_inert (cev : xevaluator) (ev : evaluator) :
  (forall s k, exists k', cev (s, k) = (fst (ev s), (snd (ev s), k')) /\ kgrow (fun _ => True) k k') -> inert cev ev.
Proof. intros H s. destruct (H s None) as [k' [-> [Hk _]]]. rewrite (krev_None k' Hk). reflexivity. Qed.

Lemma flag_inert n p a : inert (c_eval_flag env docgen n p a) (eval_flag env n p a).
Proof. apply leaf_inert. intros s k. apply c_eval_flag_spec. intros; exact I. Qed.
Lemma arg_inert n mv ty adj : inert (c_eval_arg env docgen n mv ty adj) (eval_arg env n mv ty adj).
Proof. apply leaf_inert. intros s k. apply c_eval_arg_spec; intros; exact I. Qed.
Lemma pos_inert mv ty pos help : inert (c_eval_pos docgen mv ty pos help) (eval_pos mv ty pos help).
Proof. apply leaf_inert. intros s k. apply c_eval_pos_spec; intros; exact I. Qed.
Lemma lift_inert ev : inert (c_lift ev) ev.
Proof. apply leaf_inert. intros s k. apply c_lift_spec. Qed.

Lemma parse_option_inert cev ev len s c :
  inert cev ev ->
  c_parse_option cev len (s, None) c = xnone (parse_option ev len s c).
Proof.
  intros H. unfold c_parse_option, parse_option. pose proof (H s) as E. destruct (ev s) as [r s']. rewrite E. cbn [xnone fst snd].
  destruct r; try reflexivity.
  - destruct (lt_len (remaining s') len); reflexivity.
  - destruct (c || _ || _); reflexivity.
Qed.

Lemma many_loop_inert cev ev c fuel len s acc :
  inert cev ev ->
  c_many_loop cev c fuel len (s, None) acc = xnone (many_loop ev c fuel len s acc).
Proof.
  intros H. revert len s acc. induction fuel as [|f IH]; intros len s acc; cbn [c_many_loop many_loop]; [reflexivity|].
  rewrite (parse_option_inert cev ev len s c H).
  destruct (parse_option ev len s c) as [[o l] s']. cbn [xnone fst snd]. destruct o; try reflexivity. apply IH.
Qed.

Lemma count_loop_inert cev ev fuel len s cur n last :
  inert cev ev ->
  c_count_loop cev fuel len (s, None) cur n last = xnone (count_loop ev fuel len s cur n last).
Proof.
  intros H. revert len s cur n last. induction fuel as [|f IH]; intros len s cur n last;
    cbn [c_count_loop count_loop]; [reflexivity|].
  rewrite (parse_option_inert cev ev len s false H).
  destruct (parse_option ev len s false) as [[o l] s']. cbn [xnone fst snd]. destruct o; try reflexivity.
  destruct (Nat.eqb cur (remaining s')); [reflexivity|]. apply IH.
Qed.

Lemma optional_inert cev ev c : inert cev ev -> inert (c_optional_body cev c) (optional_body ev c).
Proof.
  intros H s. unfold c_optional_body, optional_body. rewrite (parse_option_inert cev ev None s c H).
  destruct (parse_option ev None s c) as [[o l] s']. cbn [xnone fst snd]. destruct o; reflexivity.
Qed.
Lemma many_inert cev ev c : inert cev ev -> inert (c_many_body cev c) (many_body ev c).
Proof.
  intros H s. unfold c_many_body, many_body. cbn [fst]. rewrite (many_loop_inert cev ev c _ None s [] H).
  destruct (many_loop ev c (loop_fuel s) None s []) as [[r acc] s']. cbn [xnone fst snd]. destruct r; reflexivity.
Qed.
Lemma some_inert cev ev m c : inert cev ev -> inert (c_some_body cev m c) (some_body ev m c).
Proof.
  intros H s. unfold c_some_body, some_body. cbn [fst]. rewrite (many_loop_inert cev ev c _ None s [] H).
  destruct (many_loop ev c (loop_fuel s) None s []) as [[r acc] s']. cbn [xnone fst snd]. destruct r; try reflexivity.
  destruct acc; reflexivity.
Qed.
Lemma count_inert cev ev : inert cev ev -> inert (c_count_body cev) (count_body ev).
Proof.
  intros H s. unfold c_count_body, count_body. cbn [fst]. rewrite (count_loop_inert cev ev _ None s _ _ _ H).
  destruct (count_loop ev (loop_fuel s) None s (remaining s) 0 None) as [[[r n] l] s']. cbn [xnone fst snd].
  destruct r; reflexivity.
Qed.
Lemma last_inert cev ev : inert cev ev -> inert (c_last_body cev) (last_body ev).
Proof.
  intros H s. unfold c_last_body, last_body. cbn [fst]. rewrite (count_loop_inert cev ev _ None s _ _ _ H).
  destruct (count_loop ev (loop_fuel s) None s (remaining s) 0 None) as [[[r n] l] s']. cbn [xnone fst snd].
  destruct r; try reflexivity. destruct l; [reflexivity|]. apply H.
Qed.

Lemma fallback_with_inert cev ev fb : inert cev ev -> inert (c_fallback_with_body cev fb) (fallback_with_body ev fb).
Proof.
  intros H s. unfold c_fallback_with_body, fallback_with_body. pose proof (H s) as E. destruct (ev s) as [r s']. rewrite E. cbn [xnone fst snd].
  destruct r; try reflexivity. destruct (can_catch m); [destruct fb|]; reflexivity.
Qed.
Lemma guard_inert cev ev c m : inert cev ev -> inert (c_guard_body cev c m) (guard_body ev c m).
Proof.
  intros H s. unfold c_guard_body, guard_body. pose proof (H s) as E. destruct (ev s) as [r s']. rewrite E. cbn [xnone fst snd].
  destruct r; try reflexivity. destruct (c v); reflexivity.
Qed.
Lemma parse_inert cev ev f : inert cev ev -> inert (c_parse_body cev f) (parse_body ev f).
Proof.
  intros H s. unfold c_parse_body, parse_body. pose proof (H s) as E. destruct (ev s) as [r s']. rewrite E. cbn [xnone fst snd].
  destruct r; try reflexivity. destruct (f v); reflexivity.
Qed.
Lemma map_inert cev ev f : inert cev ev -> inert (c_map_body cev f) (map_body ev f).
Proof.
  intros H s. unfold c_map_body, map_body. pose proof (H s) as E. destruct (ev s) as [r s']. rewrite E. cbn [xnone fst snd].
  destruct r; reflexivity.
Qed.
Lemma hide_inert cev ev : inert cev ev -> inert (c_hide_body cev) (hide_body ev).
Proof.
  intros H s. unfold c_hide_body, hide_body. pose proof (H s) as E. destruct (ev s) as [r s']. rewrite kswap_None, E. cbn [xnone fst snd].
  destruct r; try reflexivity. destruct m; reflexivity.
Qed.
Lemma group_help_inert cev ev d : inert cev ev -> inert (c_group_help_body docgen cev d) ev.
Proof.
  intros H s. unfold c_group_help_body. pose proof (H s) as E. destruct (ev s) as [r s']. rewrite kswap_None, E. cbn [xnone fst snd].
  rewrite kswap_None. reflexivity.
Qed.
Lemma complete_inert cev ev f g : inert cev ev -> inert (c_complete_body cev f g) ev.
Proof.
  intros H s. unfold c_complete_body. pose proof (H s) as E. destruct (ev s) as [r s']. rewrite kswap_None, E. cbn [xnone fst snd].
  rewrite kswap_None. reflexivity.
Qed.
Lemma comp_shell_inert cev ev op : inert cev ev -> inert (c_comp_shell_body cev op) ev.
Proof.
  intros H s. unfold c_comp_shell_body. pose proof (H s) as E. destruct (ev s) as [r s']. rewrite kswap_None, E. cbn [xnone fst snd].
  rewrite kswap_None. reflexivity.
Qed.

Lemma or_comps_None stash sa sb pick : or_comps None stash sa None sb None pick = None.
Proof. apply krev_None, or_comps_krev; reflexivity. Qed.

Lemma or_inert ca a cb b : inert ca a -> inert cb b -> inert (c_or_body ca cb) (or_body a b).
Proof.
  intros Ha Hb s. unfold c_or_body, or_body. pose proof (Ha s) as Ea. pose proof (Hb s) as Eb.
  destruct (a s) as [ra sa]. destruct (b s) as [rb sb]. rewrite kswap_None, Ea, Eb. cbn [xnone fst snd].
  destruct ra; try reflexivity; destruct rb; try reflexivity;
    destruct (this_or_that _ _ s sa sb) as [[[|]|e] s']; rewrite or_comps_None; reflexivity.
Qed.

Lemma con_go_inert ff cevs evs s first acc err :
  Forall2 inert cevs evs ->
  c_con_go ff cevs (s, None) first acc err = xnone (con_go ff evs s first acc err).
Proof.
  intros H. revert s first acc err. induction H as [|cev ev cl l Hce Hl IH]; intros s first acc err;
    cbn [c_con_go con_go].
  - destruct err; reflexivity.
  - pose proof (Hce s) as E. destruct (ev s) as [r s']. rewrite E. cbn [xnone fst snd]. destruct r; try reflexivity; try apply IH.
    destruct (ff && first); [reflexivity|apply IH].
Qed.
Lemma con_inert ff cevs evs : Forall2 inert cevs evs -> inert (c_con_body ff cevs) (con_body ff evs).
Proof.
  intros H s. unfold c_con_body, con_body, con_reset. rewrite (con_go_inert ff cevs evs s true [] None H).
  destruct (con_go ff evs s true [] None) as [r s']. reflexivity.
Qed.

Definition lift_best (b : adj_best) : c_adj_best := mkCBest (b_consumed b) (b_args b, None) (b_err b).
Definition lift_step (st : adj_step) : c_adj_step :=
  match st with
  | AReturn v s => CAReturn v (s, None)
  | ANext b => CANext (lift_best b)
  | AStop r s => CAStop r (s, None)
  end.

Lemma adj_inner_inert cev ev orig before fuel ta best :
  inert cev ev ->
  c_adj_inner cev (orig, None) before fuel (ta, None) (lift_best best) = lift_step (adj_inner ev orig before fuel ta best).
Proof.
  intros H. revert ta best. induction fuel as [|f IH]; intros ta best.
  - rewrite adj_inner_O. reflexivity.
  - rewrite adj_inner_S. cbn [c_adj_inner]. pose proof (H ta) as E. destruct (ev ta) as [r ta1]. rewrite E. cbn [xnone fst snd].
    destruct r; try reflexivity.
    + destruct (adjacent_scope ta1 orig) as [| |a b]; try reflexivity.
      * destruct (set_scope ta1 (sc_start orig) (sc_end orig)); reflexivity.
      * destruct (set_scope orig a b); [apply IH|reflexivity].
    + destruct (Nat.ltb before (remaining ta1)); [reflexivity|].
      cbn [lift_best cb_consumed]. destruct (Nat.ltb (b_consumed best) (before - remaining ta1)); reflexivity.
Qed.

Lemma adj_try_inert cev ev orig width start best :
  inert cev ev ->
  c_adj_try cev (orig, None) width start (lift_best best) = lift_step (adj_try ev orig width start best).
Proof.
  intros H. unfold c_adj_try, adj_try. cbn [xnone fst snd].
  destruct (set_scope orig start (length (items orig))) as [ta0|]; [|reflexivity].
  destruct (set_scope ta0 start (start + width)) as [scratch|]; [|reflexivity].
  destruct (Nat.eqb (remaining scratch) 0); [reflexivity|].
  pose proof (H scratch) as E. destruct (ev scratch) as [r0 scratch']. rewrite E. cbn [xnone fst snd].
  destruct r0; try reflexivity;
    (destruct (Nat.eqb (remaining scratch) (remaining scratch')); [reflexivity|];
     destruct (set_scope ta0 start (sc_end orig)) as [ta1|]; [|reflexivity];
     destruct (if Nat.ltb (remaining ta1) (sc_end orig - start) then _ else _); [|reflexivity];
     apply adj_inner_inert; exact H).
Qed.

Lemma adj_outer_inert cev ev orig width starts best :
  inert cev ev ->
  c_adj_outer cev (orig, None) width starts (lift_best best) = xnone (adj_outer ev orig width starts best).
Proof.
  intros H. revert best. induction starts as [|st more IH]; intros best; cbn [c_adj_outer adj_outer].
  - cbn [lift_best cb_args cb_err fst snd]. destruct (set_scope (b_args best) (sc_start orig) (sc_end orig)); reflexivity.
  - rewrite (adj_try_inert cev ev orig width st best H).
    destruct (adj_try ev orig width st best); cbn [lift_step]; try reflexivity. apply IH.
Qed.

Lemma adjacent_inert cev ev fi : inert cev ev -> inert (c_eval_adjacent cev fi) (eval_adjacent ev fi).
Proof.
  intros H s. unfold c_eval_adjacent, eval_adjacent. destruct fi as [it|]; [|reflexivity]. cbn [fst].
  exact (adj_outer_inert cev ev s (item_width it) (adj_starts s (item_width it)) (mkBest 0 s (missing_msg it s)) H).
Qed.

Lemma cmd_inert name aliases shorts help adjacent m i crun run :
  run_inert crun run ->
  inert (c_cmd_body docgen name aliases shorts help adjacent m i crun) (cmd_body name aliases shorts help adjacent m i run).
Proof.
  intros H s. unfold c_cmd_body, cmd_body. destruct (take_cmd_any _ s) as [hit s1]. destruct hit; [|reflexivity].
  rewrite touching_last_None. destruct (current s1) as [cur|]; [|reflexivity].
  destruct (set_scope s1 cur (sc_end s1)) as [s2|]; [|reflexivity].
  destruct adjacent.
  - destruct (adjacently_available_from _ _) as [a b]. destruct (set_scope _ a b) as [s4|]; [|reflexivity].
    pose proof (H s4) as E. destruct (run s4) as [r s5]. rewrite E. cbn [xnone fst snd]. destruct r; try reflexivity.
    + destruct (set_scope s5 _ _); reflexivity.
    + destruct (adjacent_scope s5 _) as [| |na nb]; try reflexivity.
      destruct (set_scope _ na nb) as [o1|]; [|reflexivity].
      pose proof (H o1) as E2. destruct (run o1) as [r2 o2]. rewrite E2. cbn [xnone fst snd]. destruct r2; try reflexivity.
      destruct (set_scope o2 _ _); reflexivity.
  - rewrite H. destruct (run _) as [r s4]. cbn [xnone fst snd]. destruct r; reflexivity.
Qed.

Lemma run_sub_body_inert inf m s r s1 :
  c_run_sub_body env inf m (s, None) (r, (s1, None)) = xnone (run_sub_body env inf m s (r, s1)).
Proof. unfold c_run_sub_body. cbn [fst]. destruct (run_sub_body env inf m s (r, s1)). reflexivity. Qed.

End Inert.

Lemma Forall2_head {A B} (P : A -> B -> Prop) a l b l' : Forall2 P (a :: l) (b :: l') -> P a b.
Proof. intros H. inversion H. assumption. Qed.

Theorem ceval_inert_all env docgen :
  (forall p, inert (ceval env docgen p) (eval env (erase p))) /\
  (forall ps, Forall2 inert (cevals env docgen ps) (evals env (erase_l ps))) /\
  (forall o, run_inert (crun_sub env docgen o) (run_sub env (erase_o o))).
Proof.
  apply cparser_cplist_coparser_ind; intros; cbn [erase erase_l erase_o].
  - apply flag_inert.
  - apply arg_inert.
  - apply pos_inert.
  - intros s. apply (lift_inert (eval_any metavar help check anywhere)).
  - intros s. rewrite eval_PCmd. apply cmd_inert. exact H.
  - destruct fields as [|q1 [|q2 t]]; cbn [erase_l].
    + intros s. reflexivity.
    + intros s. rewrite eval_PCon_one. exact (Forall2_head _ _ _ _ _ H s).
    + intros s. rewrite eval_PCon_many, ceval_XCon_many. apply con_inert. exact H.
  - intros s. rewrite eval_PAdj. apply (adjacent_inert _ _ _ (con_inert true _ _ H)).
  - intros s. rewrite eval_POr. apply or_inert; assumption.
  - intros s. rewrite eval_POptional. apply optional_inert; assumption.
  - intros s. rewrite eval_PMany. apply many_inert; assumption.
  - intros s. rewrite eval_PSome. apply some_inert; assumption.
  - intros s. rewrite eval_PCollect. apply many_inert; assumption.
  - intros s. rewrite eval_PCount. apply count_inert; assumption.
  - intros s. rewrite eval_PLast. apply last_inert; assumption.
  - intros s. rewrite eval_PFallback. apply fallback_with_inert; assumption.
  - intros s. rewrite eval_PFallbackWith. apply fallback_with_inert; assumption.
  - intros s. rewrite eval_PGuard. apply guard_inert; assumption.
  - intros s. rewrite eval_PParse. apply parse_inert; assumption.
  - intros s. rewrite eval_PMap. apply map_inert; assumption.
  - intros s. rewrite eval_PHide. apply hide_inert; assumption.
  - intros s. rewrite eval_PUsage. apply H.
  - intros s. rewrite eval_PGroupHelp. apply group_help_inert; assumption.
  - intros s. reflexivity.
  - intros s. rewrite eval_PPureWith. destruct r; reflexivity.
  - intros s. reflexivity.
  - intros s. rewrite eval_PBoxed. apply H.
  - apply complete_inert; assumption.
  - apply comp_shell_inert; assumption.
  - constructor.
  - rewrite cevals_cons, evals_cons. constructor; assumption.
  - intros s. rewrite crun_sub_eq, run_sub_eq, H. destruct (eval env (erase p) s) as [r s1]. cbn [xnone fst snd].
    apply run_sub_body_inert.
Qed.

Corollary ceval_inert env docgen p s :
  ceval env docgen p (s, None) = (fst (eval env (erase p) s), (snd (eval env (erase p) s), None)).
Proof. apply (proj1 (ceval_inert_all env docgen)). Qed.
Corollary crun_sub_inert env docgen o s :
  crun_sub env docgen o (s, None) = (fst (run_sub env (erase_o o) s), (snd (run_sub env (erase_o o) s), None)).
Proof. apply (proj2 (proj2 (ceval_inert_all env docgen))). Qed.

Lemma scan_markers_none sf sa argv :
  (forall w, In w argv -> marker_rev w = None) -> scan_markers sf sa argv None = (argv, None).
Proof.
  induction argv as [|w t IH]; intros H; cbn [scan_markers]; [reflexivity|].
  destruct (beqb w dashdash); [reflexivity|].
  rewrite (H w (or_introl eq_refl)). destruct (word_ambiguous sf sa w); [reflexivity|].
  rewrite IH; [reflexivity|]. intros v Hv. apply H. right. exact Hv.
Qed.

(* run_inner of a build with `autocomplete`, no completion requested (no `set_comp`, no marker on the line)
   = run_inner of a build without it *)
Theorem c_run_inner_no_request feat env o name argv :
  (forall w, In w argv -> marker_rev w = None) ->
  c_run_inner feat env o name argv None = run_inner feat env (erase_o o) name argv.
Proof.
  intros Hm. unfold c_run_inner, c_run_inner_state, c_initial_state, run_inner, run_inner_state, initial_state.
  destruct (short_tables (erase_o o)) as [sf sa]. rewrite (scan_markers_none sf sa argv Hm).
  destruct (construct sf sa name argv) as [st amb]. cbn [snd].
  destruct amb as [[ix short]|]; [reflexivity|].
  rewrite crun_sub_inert. reflexivity.
Qed.
