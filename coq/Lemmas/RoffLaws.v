(* RoffLaws.v -- manpage output (C16):
   (1) every output line that begins with a roff control character (`.` or `'`) begins with a byte
       bpaf itself emitted as the start of a request (origin OCtl) -- for EVERY document, every
       help text, name and metavariable;
   (2) user text is read back by roff exactly: the escaping round-trips through a reader of roff
       text that knows only the escapes bpaf uses and fails on any other backslash sequence. *)
From BpafModel Require Import Docs.
Import ListNotations.

(* a reader of roff text: \& is nothing, \\ \- "\ " are the character, \*(Aq is an apostrophe; any
   other escape is NOT understood (None) *)
Fixpoint unroff (s : bytes) : option bytes :=
  match s with
  | [] => Some []
  | c :: t =>
    if (c =? c_bsl)%N then
      match t with
      | d :: t' =>
        if (d =? 38)%N then unroff t'
        else if (d =? c_bsl)%N then option_map (cons c_bsl) (unroff t')
        else if (d =? c_minus)%N then option_map (cons c_minus) (unroff t')
        else if (d =? 32)%N then option_map (cons 32%N) (unroff t')
        else if (d =? 42)%N then
          match t' with
          | x :: y :: z :: t'' =>
            if ((x =? 40) && (y =? 65) && (z =? 113))%N then option_map (cons c_apos) (unroff t'') else None
          | _ => None
          end
        else None
      | [] => None
      end
    else option_map (cons c) (unroff t)
  end.

Definition untag (o : list tbyte) : bytes := map fst o.
Lemma untag_app a b : untag (a ++ b) = untag a ++ untag b.
Proof. apply map_app. Qed.

Definition nl_to_sp (c : N) : N := if (c =? 10)%N then 32%N else c.

(* Escaping looks at a byte only to compare it with one of these six; any other byte is copied. *)
Definition special_bytes : list N := [c_apos; c_bsl; c_minus; c_dot; 10; 32]%N.
Definition plain_byte (c : N) : Prop := forall k, In k special_bytes -> (c =? k)%N = false.

Lemma byte_class c : In c special_bytes \/ plain_byte c.
Proof.
  destruct (in_dec N.eq_dec c special_bytes) as [H|H]; [left; exact H|right].
  intros k Hk. apply N.eqb_neq. intros ->. exact (H Hk).
Qed.

Definition origin_of (m : esc) : origin :=
  match m with EUnescNl => OCtl | EUnesc => OFix | _ => OUser end.

Lemma esc_byte_plain m f c : plain_byte c -> esc_byte m f c = ([(c, origin_of m)], false).
Proof.
  intros H. destruct m; cbn [esc_byte esc_eqb andb]; rewrite !H by (cbn [In special_bytes]; auto 10);
    rewrite ?andb_false_r; reflexivity.
Qed.

Definition read_as (m : esc) (c : N) : N := match m with ESpecial => c | _ => nl_to_sp c end.
Definition is_text (m : esc) : bool :=
  match m with ESpaces | ESpecial | ESpecialNoNl => true | _ => false end.

Lemma unroff_byte m a c r : is_text m = true ->
  unroff (untag (fst (esc_byte m a c)) ++ r) = option_map (cons (read_as m c)) (unroff r).
Proof.
  intros Hm. destruct (byte_class c) as [H|H].
  - (* one of six bytes: the escape is a closed string, which the reader reads *)
    cbn [special_bytes In] in H.
    destruct H as [<-|[<-|[<-|[<-|[<-|[<-|[]]]]]]]; destruct m; try discriminate Hm; destruct a; reflexivity.
  - rewrite (esc_byte_plain m a c H). unfold read_as, nl_to_sp. cbn [untag map fst app unroff].
    rewrite !H by (cbn [In special_bytes]; auto 10). destruct m; reflexivity.
Qed.

Lemma esc_bytes_cons m a c t :
  esc_bytes m a (c :: t) =
  (fst (esc_byte m a c) ++ fst (esc_bytes m (snd (esc_byte m a c)) t),
   snd (esc_bytes m (snd (esc_byte m a c)) t)).
Proof.
  cbn [esc_bytes]. destruct (esc_byte m a c) as [o1 a1]. cbn [fst snd]. destruct (esc_bytes m a1 t) as [o2 a2]. reflexivity.
Qed.

Lemma roundtrip m s : is_text m = true -> forall a,
  unroff (untag (fst (esc_bytes m a s))) = Some (map (read_as m) s).
Proof.
  intros Hm. induction s as [|c t IH]; intros a; [reflexivity|].
  rewrite esc_bytes_cons. cbn [fst]. rewrite untag_app, (unroff_byte m a c _ Hm), IH. reflexivity.
Qed.

(* help texts, metavariables, names: written with Escape::Special, read back unchanged *)
Theorem special_roundtrip s : forall a, unroff (untag (fst (esc_bytes ESpecial a s))) = Some s.
Proof. intros a. rewrite (roundtrip ESpecial s eq_refl a). cbn [read_as]. rewrite map_id. reflexivity. Qed.

(* item terms (strip_newlines): the same with newlines turned into spaces *)
Theorem special_nonl_roundtrip s : forall a,
  unroff (untag (fst (esc_bytes ESpecialNoNl a s))) = Some (map nl_to_sp s).
Proof. exact (roundtrip ESpecialNoNl s eq_refl). Qed.

(* arguments of requests (section titles, command paths, the application name) *)
Theorem spaces_roundtrip s : forall a,
  unroff (untag (fst (esc_bytes ESpaces a s))) = Some (map nl_to_sp s).
Proof. exact (roundtrip ESpaces s eq_refl). Qed.

(* the reader really rejects foreign escapes: `\fB` passed through unescaped is not understood *)
Example unroff_rejects_raw_escape : unroff [92; 102; 66]%N = None.
Proof. reflexivity. Qed.

Definition is_ctl_char (c : N) : bool := ((c =? 46) || (c =? 39))%N.
Definition is_octl (o : origin) : bool := match o with OCtl => true | _ => false end.

(* walk the output keeping "really at the start of a line"; None = a line begins with a control
   character that is not the start of one of bpaf's requests *)
Fixpoint chk (r : bool) (out : list tbyte) : option bool :=
  match out with
  | [] => Some r
  | (c, o) :: t => if r && is_ctl_char c && negb (is_octl o) then None else chk (c =? 10)%N t
  end.

Lemma chk_app r a b : chk r (a ++ b) = match chk r a with Some r' => chk r' b | None => None end.
Proof.
  revert r. induction a as [|[c o] t IH]; intros r; cbn [app chk]; [reflexivity|].
  destruct (r && is_ctl_char c && negb (is_octl o)); [reflexivity|apply IH].
Qed.

(* what acceptance means: a `.` or `'` that starts a line was written by bpaf as the start of a request *)
Lemma chk_sound out : forall r r', chk r out = Some r' ->
  forall pre c o post, out = pre ++ (c, o) :: post ->
    (match rev pre with [] => r = true | (x, _) :: _ => x = 10%N end) ->
    (c = 46%N \/ c = 39%N) -> o = OCtl.
Proof.
  induction out as [|[c0 o0] t IH]; intros r r' H pre c o post E Hs Hc.
  - destruct pre; discriminate.
  - cbn [chk] in H. destruct pre as [|[c1 o1] pre'].
    + cbn in E. inversion E; subst. cbn in Hs. subst r.
      assert (Hk : is_ctl_char c = true) by (unfold is_ctl_char; destruct Hc; subst; reflexivity).
      rewrite Hk in H. cbn in H. destruct o; try discriminate. reflexivity.
    + cbn in E. inversion E; subst.
      destruct (r && is_ctl_char c1 && negb (is_octl o1)); [discriminate|].
      eapply IH; [exact H|reflexivity| |exact Hc].
      cbn [rev] in Hs. destruct (rev pre') as [|[x ox] rp] eqn:Er.
      * cbn in Hs. apply N.eqb_eq. exact Hs.
      * cbn in Hs. exact Hs.
Qed.

(* the invariant of `escape`: whenever the output really is at a line start, the flag says so *)
Definition inv (r f : bool) : Prop := r = true -> f = true.

Lemma inv_false f : inv false f.
Proof. intros H; discriminate. Qed.
Lemma inv_same b : inv b b.
Proof. intros H; exact H. Qed.
#[local] Hint Resolve inv_false inv_same : roff.

(* Special text, whatever the byte: a control character at a line start is preceded by `\&`, and
   the flag afterwards says whether the last byte written was a newline *)
Lemma chk_special_byte m c r f :
  (m = ESpecial \/ m = ESpecialNoNl) -> inv r f ->
  exists r', chk r (fst (esc_byte m f c)) = Some r' /\ inv r' (snd (esc_byte m f c)).
Proof.
  intros Hm Hi. destruct (byte_class c) as [H|H].
  - cbn [special_bytes In] in H.
    destruct H as [<-|[<-|[<-|[<-|[<-|[<-|[]]]]]]]; destruct Hm as [-> | ->];
      destruct r, f; try discriminate (Hi eq_refl); eexists; (split; [reflexivity|auto with roff]).
  - rewrite (esc_byte_plain m f c H). exists false. split; [|apply inv_false].
    cbn [fst chk]. unfold is_ctl_char. rewrite !H by (cbn [In special_bytes]; auto 10). rewrite andb_false_r. reflexivity.
Qed.

Lemma chk_special m s : (m = ESpecial \/ m = ESpecialNoNl) -> forall r f, inv r f ->
  exists r', chk r (fst (esc_bytes m f s)) = Some r' /\ inv r' (snd (esc_bytes m f s)).
Proof.
  intros Hm. induction s as [|c t IH]; intros r f Hi; [exists r; split; [reflexivity|exact Hi]|].
  rewrite esc_bytes_cons. cbn [fst snd].
  destruct (chk_special_byte m c r f Hm Hi) as [r1 [E1 I1]].
  destruct (IH r1 _ I1) as [r2 [E2 I2]].
  exists r2. rewrite chk_app, E1. auto.
Qed.

(* request arguments: only ever written in the middle of a line, and never emit a newline *)
Lemma chk_spaces s : forall f, chk false (fst (esc_bytes ESpaces f s)) = Some false.
Proof.
  induction s as [|c t IH]; intros f; [reflexivity|].
  rewrite esc_bytes_cons. cbn [fst]. rewrite chk_app.
  assert (E : chk false (fst (esc_byte ESpaces f c)) = Some false).
  { unfold esc_byte. destruct ((c =? 32)%N || (c =? 10)%N) eqn:E0; [reflexivity|].
    apply orb_false_iff in E0. destruct E0 as [_ E10].
    destruct (c =? c_bsl)%N eqn:Eb; cbn.
    - apply N.eqb_eq in Eb. subst c. reflexivity.
    - rewrite E10. reflexivity. }
  rewrite E. apply IH.
Qed.

(* bpaf's fixed vocabulary: no newline inside, does not begin with a control character *)
Definition fix_safe (p : bytes) : bool :=
  forallb (fun c => negb (c =? 10)%N) p && match p with c :: _ => negb (is_ctl_char c) | [] => true end.

Lemma chk_unesc_tail p : forall f, forallb (fun c => negb (c =? 10)%N) p = true ->
  chk false (fst (esc_bytes EUnesc f p)) = Some false.
Proof.
  induction p as [|c t IH]; intros f H; [reflexivity|].
  cbn [forallb] in H. apply andb_prop in H. destruct H as [Hc Ht]. apply negb_true_iff in Hc.
  rewrite esc_bytes_cons. cbn [fst snd esc_byte app chk andb]. rewrite Hc. apply IH, Ht.
Qed.

Lemma chk_unesc p r f : fix_safe p = true -> inv r f ->
  exists r', chk r (fst (esc_bytes EUnesc f p)) = Some r' /\ inv r' (snd (esc_bytes EUnesc f p)).
Proof.
  intros H Hi. unfold fix_safe in H. apply andb_prop in H. destruct H as [Hn Hh].
  destruct p as [|c t]; [exists r; split; [reflexivity|exact Hi]|].
  cbn [forallb] in Hn. apply andb_prop in Hn. destruct Hn as [Hc Ht].
  apply negb_true_iff in Hc. apply negb_true_iff in Hh.
  exists false. split; [|apply inv_false].
  rewrite esc_bytes_cons. cbn [fst snd esc_byte app chk]. rewrite Hh, Hc, andb_false_r. apply chk_unesc_tail, Ht.
Qed.

(* the bytes of a request start are bpaf's own *)
Lemma chk_ctl p : forall r f, exists r',
  chk r (fst (esc_bytes EUnescNl f p)) = Some r' /\
  (p <> [] -> inv r' (snd (esc_bytes EUnescNl f p))) /\ (p = [] -> r' = r).
Proof.
  induction p as [|c t IH]; intros r f; [exists r; repeat split; congruence|].
  rewrite esc_bytes_cons. cbn [fst snd esc_byte]. cbn [app chk is_octl negb]. rewrite andb_false_r.
  destruct (IH (c =? 10)%N (c =? 10)%N) as [r' [E [I1 I2]]]. exists r'. split; [exact E|]. split; [|discriminate].
  intros _. destruct t; [|apply I1; discriminate].
  rewrite (I2 eq_refl). apply inv_same.
Qed.

(* escape_go also returning the flag it ends with: the model keeps it to itself, the invariant of a
   run of fragments needs it to go on *)
Fixpoint escape_go2 (at_start : bool) (fs : list frag) : list tbyte * bool :=
  match fs with
  | [] => ([], at_start)
  | (m, p) :: t =>
    let nlb := negb at_start && esc_eqb m EUnescNl in
    let '(o, a) := esc_bytes m (if nlb then true else at_start) p in
    let '(o2, a2) := escape_go2 a t in
    ((if nlb then [(10%N, OIns)] else []) ++ o ++ o2, a2)
  end.
Lemma escape_go2_fst f fs : fst (escape_go2 f fs) = escape_go f fs.
Proof.
  revert f. induction fs as [|[m p] t IH]; intros f; cbn [escape_go2 escape_go]; [reflexivity|].
  destruct (esc_bytes m _ p) as [o a]. rewrite <- IH. destruct (escape_go2 a t). reflexivity.
Qed.
Lemma escape_go2_app f a b :
  escape_go2 f (a ++ b) = (fst (escape_go2 f a) ++ fst (escape_go2 (snd (escape_go2 f a)) b),
                           snd (escape_go2 (snd (escape_go2 f a)) b)).
Proof.
  revert f. induction a as [|[m p] t IH]; intros f; cbn [app escape_go2].
  - cbn. destruct (escape_go2 f b); reflexivity.
  - destruct (esc_bytes m _ p) as [o x]. rewrite IH. destruct (escape_go2 x t) as [o2 a2]. cbn [fst snd].
    destruct (escape_go2 a2 b). cbn [fst snd]. rewrite <- !app_assoc. reflexivity.
Qed.

(* a run of fragments passes the check from every state (r, f) with the invariant, and leaves it *)
Definition run_ok (fs : list frag) : Prop :=
  forall r f, inv r f -> exists r', chk r (fst (escape_go2 f fs)) = Some r' /\ inv r' (snd (escape_go2 f fs)).

Lemma run_ok_nil : run_ok [].
Proof. intros r f H. exists r. auto. Qed.

Lemma run_ok_app a b : run_ok a -> run_ok b -> run_ok (a ++ b).
Proof.
  intros Ha Hb r f Hi. rewrite escape_go2_app. cbn [fst snd].
  destruct (Ha r f Hi) as [r1 [E1 I1]]. destruct (Hb r1 _ I1) as [r2 [E2 I2]].
  exists r2. rewrite chk_app, E1. auto.
Qed.

Lemma escape_go2_one f m p :
  escape_go2 f [(m, p)] =
  let nlb := negb f && esc_eqb m EUnescNl in
  ((if nlb then [(10%N, OIns)] else []) ++ fst (esc_bytes m (if nlb then true else f) p),
   snd (esc_bytes m (if nlb then true else f) p)).
Proof.
  cbn [escape_go2]. destruct (esc_bytes m _ p) as [o a]. cbn. rewrite app_nil_r. reflexivity.
Qed.

Lemma run_ok_cons x t : run_ok [x] -> run_ok t -> run_ok (x :: t).
Proof. exact (run_ok_app [x] t). Qed.

(* a newline inserted before a request does no harm *)
Lemma chk_ins_nl r : chk r [(10%N, OIns)] = Some true.
Proof. cbn. rewrite andb_false_r. reflexivity. Qed.

Lemma run_ok_special m s : (m = ESpecial \/ m = ESpecialNoNl) -> run_ok [(m, s)].
Proof.
  intros Hm r f Hi. rewrite escape_go2_one.
  assert (E : esc_eqb m EUnescNl = false) by (destruct Hm; subst; reflexivity).
  rewrite E, andb_false_r. cbn [app fst snd]. apply chk_special; assumption.
Qed.

Lemma run_ok_unesc p : fix_safe p = true -> run_ok [(EUnesc, p)].
Proof.
  intros Hp r f Hi. rewrite escape_go2_one. cbn [esc_eqb]. rewrite andb_false_r. cbn [app fst snd].
  apply chk_unesc; assumption.
Qed.

(* the start of a request: from any state; afterwards we are in the middle of a line *)
Lemma ctl_dot r f :
  chk r (fst (escape_go2 f [(EUnescNl, [c_dot])])) = Some false /\ snd (escape_go2 f [(EUnescNl, [c_dot])]) = false.
Proof.
  rewrite escape_go2_one. cbn [esc_eqb]. rewrite andb_true_r.
  destruct f; cbn; rewrite ?andb_false_r; auto.
Qed.

(* the end of a request / a source line break: a newline unless the flag says we are at one *)
Lemma run_ok_ctl_nil : run_ok [(EUnescNl, [])].
Proof.
  intros r f Hi. rewrite escape_go2_one. cbn [esc_eqb]. rewrite andb_true_r.
  destruct f; cbn [negb esc_bytes app fst snd].
  - exists r. auto.
  - exists true. rewrite chk_ins_nl. auto with roff.
Qed.

(* a run that starts mid-line, stays mid-line: (EUnesc name) (EUnesc " " ; ESpaces arg)* *)
Definition midline (fs : list frag) : Prop := forall f, chk false (fst (escape_go2 f fs)) = Some false.
Lemma midline_nil : midline [].
Proof. intros f. reflexivity. Qed.
Lemma midline_app a b : midline a -> midline b -> midline (a ++ b).
Proof. intros Ha Hb f. rewrite escape_go2_app. cbn [fst]. rewrite chk_app, Ha. apply Hb. Qed.
Lemma midline_cons x t : midline [x] -> midline t -> midline (x :: t).
Proof. exact (midline_app [x] t). Qed.

Lemma midline_unesc p : fix_safe p = true -> midline [(EUnesc, p)].
Proof.
  intros Hp f. rewrite escape_go2_one. cbn [esc_eqb]. rewrite andb_false_r. cbn [app fst].
  unfold fix_safe in Hp. apply andb_prop in Hp. destruct Hp as [Hn _].
  apply chk_unesc_tail, Hn.
Qed.
Lemma midline_spaces p : midline [(ESpaces, p)].
Proof. intros f. rewrite escape_go2_one. cbn [esc_eqb]. rewrite andb_false_r. cbn [app fst]. apply chk_spaces. Qed.

Lemma midline_args e args :
  midline (flat_map (fun a => [(EUnesc, [32%N]); (ESpaces, if is_nil a then e else a)]) args).
Proof.
  induction args as [|a t IH]; [apply midline_nil|]. cbn [flat_map app].
  apply midline_cons; [apply midline_unesc; reflexivity|]. apply midline_cons; [apply midline_spaces|exact IH].
Qed.

(* a request: the dot, a mid-line run, the end of the line *)
Lemma run_ok_request fs : midline fs -> run_ok ([(EUnescNl, [c_dot])] ++ fs ++ [(EUnescNl, [])]).
Proof.
  intros M r f Hi. rewrite escape_go2_app. cbn [fst snd].
  destruct (ctl_dot r f) as [E1 F1]. rewrite chk_app, E1, F1.
  rewrite escape_go2_app. cbn [fst snd]. rewrite chk_app, M. apply run_ok_ctl_nil, inv_false.
Qed.

Lemma run_ok_control name args : fix_safe name = true -> run_ok (r_control name args).
Proof.
  intros Hn. apply (run_ok_request ((EUnesc, name) :: _)). apply midline_cons; [apply midline_unesc, Hn|apply midline_args].
Qed.

Lemma run_ok_control0 name : fix_safe name = true -> run_ok (r_control0 name).
Proof. exact (run_ok_control name []). Qed.

Lemma run_ok_text strip fnt s : run_ok (r_text strip fnt s).
Proof.
  apply run_ok_cons; [apply run_ok_unesc; destruct fnt; reflexivity|].
  apply run_ok_cons; [apply run_ok_special; destruct strip; auto|apply run_ok_unesc; reflexivity].
Qed.

(* every token of every document contributes such a run: nothing, a request whose name is one of
   bpaf's words, a line break, or styled text *)
#[local] Hint Resolve run_ok_nil run_ok_control0 run_ok_control run_ok_ctl_nil : roff.
#[local] Hint Extern 1 (fix_safe _ = true) => reflexivity : roff.

Lemma run_ok_roff_step st t : match roff_step st t with Some (fs, _) => run_ok fs | None => True end.
Proof.
  destruct t as [sty s|b|b]; cbn [roff_step].
  - destruct (rs_capturing st); [apply run_ok_nil|].
    apply run_ok_app; [destruct sty; auto with roff|apply run_ok_text].
  - destruct b; auto with roff.
  - destruct b; unfold r_linebreak; auto with roff.
Qed.

Lemma run_ok_roff_frags d : forall st fs, roff_frags st d = Some fs -> run_ok fs.
Proof.
  induction d as [|t d IH]; intros st fs H; cbn [roff_frags] in H.
  - inversion H. apply run_ok_nil.
  - pose proof (run_ok_roff_step st t) as F1.
    destruct (roff_step st t) as [[f1 st1]|]; [|discriminate].
    destruct (roff_frags st1 d) as [r|] eqn:E2; [|discriminate]. inversion H; subst.
    apply run_ok_app; [exact F1|exact (IH st1 r E2)].
Qed.

Lemma chk_all_ctl p r : exists r', chk r (tag OCtl p) = Some r'.
Proof.
  revert r. induction p as [|c t IH]; intros r; [exists r; reflexivity|].
  cbn [tag map chk is_octl negb]. rewrite andb_false_r. apply IH.
Qed.

(* C16: for EVERY document and `.TH` arguments the manpage passes the check -- by chk_sound, no line
   of it begins with `.` or `'` unless that byte is the start of a request bpaf wrote itself (or of
   its fixed preamble) *)
Theorem roff_control_lines th d fs :
  render_roff_frags th d = Some fs ->
  exists r, chk true (roff_render_tagged fs) = Some r.
Proof.
  unfold render_roff_frags. destruct (roff_frags rs_init d) as [fs0|] eqn:E; [|discriminate].
  cbn [option_map]. intros H; inversion H; subst fs. clear H.
  unfold roff_render_tagged. rewrite chk_app.
  destruct (chk_all_ctl preamble true) as [r0 P]. rewrite P.
  assert (F : run_ok (r_control k_TH th ++ fs0)).
  { apply run_ok_app; [apply run_ok_control; reflexivity|exact (run_ok_roff_frags d _ _ E)]. }
  destruct (F r0 true (fun _ => eq_refl)) as [r' [E' _]]. rewrite <- escape_go2_fst. eauto.
Qed.
