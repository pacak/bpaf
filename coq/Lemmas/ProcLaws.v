(* ProcLaws.v -- what the process does with the outcome of a run: streams, exit status, whether the
   program body is reached; the program name taken from argv[0] (C11). *)
From Coq Require Import Lia.
From BpafModel Require Import Process.
Import ListNotations.

Section Proc.
Variable tso : helpreq -> bytes.
Variable tse : message -> bytes.

(* the status table, over the exit_code function regenerated from src/error.rs *)
Theorem status_table o p :
  process_of tso tse o = Some p ->
  (p_status p = 0%Z <-> (exists v, o = OutOk v) \/ (exists h, o = OutStdout h) \/ (exists s, o = OutCompletion s)) /\
  (p_status p = 1%Z <-> exists m, o = OutStderr m).
Proof.
  destruct o; cbn; intros H; inversion H; subst; cbn; split; split;
    try (intros; eauto; fail); try (intros; lia);
    try (intros [[? E]|[[? E]|[? E]]]; discriminate E); try (intros [? E]; discriminate E).
Qed.

Theorem streams o p :
  process_of tso tse o = Some p ->
  match o with
  | OutOk v => p_stdout p = [] /\ p_stderr p = [] /\ p_body p = Some v
  | OutStdout h => p_stdout p = tso h ++ [c_nl] /\ p_stderr p = [] /\ p_body p = None
  | OutCompletion s => p_stdout p = s /\ p_stderr p = [] /\ p_body p = None
  | OutStderr m =>
    p_stdout p = [] /\ p_stderr p = error_prefix ++ tse m ++ [c_nl] /\ p_stderr p <> [] /\ p_body p = None
  | _ => False
  end.
Proof.
  destruct o; cbn; intros H; inversion H; subst; cbn; repeat split; discriminate.
Qed.

Theorem body_iff_value o p v :
  process_of tso tse o = Some p -> (p_body p = Some v <-> o = OutOk v).
Proof.
  destruct o; cbn; intros H; inversion H; subst; cbn; split; intros E; try discriminate; congruence.
Qed.

(* despite its name: the message starts with "Error: "; that it is not empty is part of `streams` *)
Theorem failure_message_nonempty m p :
  process_of tso tse (OutStderr m) = Some p ->
  p_stdout p = [] /\ exists rest, p_stderr p = error_prefix ++ rest.
Proof. intros H. destruct (streams _ _ H) as (Ho & He & _). split; [exact Ho|]. rewrite He. eauto. Qed.

End Proc.

Theorem program_name_spec argv0 n :
  program_name argv0 = Some n <->
  exists p, argv0 = Some p /\ file_name p = Some n /\ utf8_valid n = true.
Proof.
  unfold program_name. destruct argv0 as [p|].
  - destruct (file_name p) as [f|] eqn:Ef.
    + destruct (utf8_valid f) eqn:Eu; split.
      * intros H; inversion H; subst. eauto.
      * intros (q & Hq & Hf & Hu). inversion Hq; subst. congruence.
      * discriminate.
      * intros (q & Hq & Hf & Hu). inversion Hq; subst. congruence.
    + split; [discriminate|]. intros (q & Hq & Hf & _). inversion Hq; subst. congruence.
  - split; [discriminate|]. intros (q & Hq & _). discriminate.
Qed.
