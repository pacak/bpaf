(* ConvTreeSound.v -- C01, the converse for whole subcommand trees: on every vector the grammar
   specifies, the parser returns Ok v only for sentences denoting v.
   A level that offers subcommands: the named fields run first, on a line that also holds the
   subcommand's items; they take whole occurrences (a key, or a key with its value) and never
   touch what belongs to deeper levels; the alternative of commands can only enter at the first
   token still on the line, which must be a command word -- so either the fields consumed exactly
   the occurrences the scan attributes to them and the command word is the one the scan stopped at,
   or the run fails.  What the subcommand's parser then returns is judged by induction. *)
From BpafModel Require Import Conv.
From BpafLemmas Require Import Tac Reach AbsSim ConvLaws ConvRefine ConvChain ConvTree ConvSound TokLaws.
Import ListNotations.

Definition preserves (P : lv -> Prop) (ev : lv -> ares * lv) : Prop := forall l, P l -> P (snd (ev l)).

Lemma item_pres (P : lv -> Prop) fuel it :
  (is_argument it = false -> forall pr ab, preserves P (aeval_flag (item_named it) pr ab)) ->
  (is_argument it = true -> forall ty, preserves P (aeval_arg (item_named it) ty)) ->
  preserves P (aeval fuel (compile_item it)).
Proof. apply (item_closed (fun l l' => P l -> P l') (fun _ H => H) (fun _ _ _ H1 H2 H => H2 (H1 H))). Qed.

Lemma arun_pres (P : lv -> Prop) aevs : Forall (preserves P) aevs -> forall l vs lk,
  P l -> arun aevs l = Some (vs, lk) -> P lk.
Proof.
  intros H l vs lk Hp E.
  exact (arun_rel (fun l l' => P l -> P l') (fun _ H => H) (fun _ _ _ H1 H2 H => H2 (H1 H)) aevs H l vs lk E Hp).
Qed.

Lemma wf_rval items lo t : WF items lo t -> forall i b k, In (i, b, RVal k) t ->
  exists j a it w, i = S j /\ In (j, a, RKey k) t /\ find_owner items a 0 = Some (k, it) /\
                   is_argument it = true /\ is_value b = Some w.
Proof. intros W i b k Hin. apply (WF_in items lo t W i b (RVal k) Hin). Qed.

Lemma wf_rkey items lo t : WF items lo t -> forall i a k, In (i, a, RKey k) t ->
  is_key a = true /\ exists it, find_owner items a 0 = Some (k, it) /\
    (is_argument it = true -> exists b w, In (S i, b, RVal k) t /\ is_value b = Some w).
Proof. intros W i a k Hin. apply (WF_in items lo t W i a (RKey k) Hin). Qed.

Section Inv.
Variable items : list citem.
Hypothesis Hdis : disjoint_names items.
Variable lo : nat.
Variable tp : tl3.                       (* the attributed prefix: keys and values of this level *)
Hypothesis Wp : WF items lo tp.
Variable R : lv.                         (* whatever follows *)

Definition l0 : lv := untag tp ++ R.

(* a value still on the line has its key still on the line *)
Definition Pair (l : lv) : Prop :=
  forall j b k, In (S j, b, RVal k) tp -> In (S j, b) l -> exists a, In (j, a, RKey k) tp /\ In (j, a) l.

Definition Good (l : lv) : Prop := uniq l /\ incl l l0 /\ Pair l.

Lemma good_filt ev l : filt ev -> uniq l -> incl l l0 -> uniq (snd (ev l)) /\ incl (snd (ev l)) l0.
Proof.
  intros Hf U I. split; [apply filt_uniq; assumption|]. intros x Hx. apply I. eapply filt_incl; eauto.
Qed.

Lemma arg_good nm ty : preserves Good (aeval_arg nm ty).
Proof.
  intros l (U & I & P). destruct (good_filt (aeval_arg nm ty) l (filt_arg nm ty) U I) as [U' I'].
  split; [exact U'|]. split; [exact I'|].
  unfold aeval_arg in *. destruct (afind (matches_arg nm false) l) as [[i a]|] eqn:F; [|exact P].
  apply afind_in in F. destruct F as [Hin Ma].
  destruct (aget (S i) l) as [b|] eqn:G; [|exact P].
  pose proof (aget_some _ _ _ G) as Hb.
  assert (Hrem : forall w, is_value b = Some w -> Pair (aremove (S i) (aremove i l))).
  { intros w Vb j b' k Hv Hl'. unfold aremove in Hl'. apply filter_In in Hl'. destruct Hl' as [Hl' N1].
    apply filter_In in Hl'. destruct Hl' as [Hl' N2]. cbn [fst] in N1, N2.
    apply negb_true_iff in N1. apply negb_true_iff in N2. apply Nat.eqb_neq in N1. apply Nat.eqb_neq in N2.
    destruct (P j b' k Hv Hl') as (a' & Ht & Hl). exists a'. split; [exact Ht|].
    unfold aremove. apply filter_In. split; [apply filter_In; split; [exact Hl|]|]; cbn [fst]; apply negb_true_iff; apply Nat.eqb_neq.
    - intros E. subst j. lia.
    - intros E. subst j.
      (* the key of a pair at the index of a value *)
      assert (Eq : (S i, a') = (S i, b)) by (apply (uniq_same l); auto).
      inversion Eq; subst a'. destruct (wf_rkey items lo tp Wp _ _ _ Ht) as [K _].
      rewrite (value_not_key b w Vb) in K. discriminate. }
  destruct b as [c adj os|n' adj os|w|w|w]; cbn [snd]; try exact P; rewrite aconvert_snd; eapply Hrem; reflexivity.
Qed.

Lemma flag_good it pr ab : In it items -> is_argument it = false -> preserves Good (aeval_flag (item_named it) pr ab).
Proof.
  intros Hit Ia l (U & I & P).
  destruct (good_filt (aeval_flag (item_named it) pr ab) l (filt_flag _ pr ab) U I) as [U' I'].
  split; [exact U'|]. split; [exact I'|].
  unfold aeval_flag in *. destruct (afind (matches_arg (item_named it) false) l) as [[i a]|] eqn:F; [|destruct ab; exact P].
  apply afind_in in F. destruct F as [Hin Ma]. cbn [snd].
  intros j b k Hv Hl'. unfold aremove in Hl'. apply filter_In in Hl'. destruct Hl' as [Hl' N1].
  destruct (P j b k Hv Hl') as (a' & Ht & Hl). exists a'. split; [exact Ht|].
  unfold aremove. apply filter_In. split; [exact Hl|]. cbn [fst]. apply negb_true_iff. apply Nat.eqb_neq. intros E. subst j.
  assert (Eq : (i, a') = (i, a)) by (apply (uniq_same l); auto). inversion Eq; subst a'.
  (* a is the key of an argument's occurrence and carries the flag's name *)
  destruct (wf_rval items lo tp Wp _ _ _ Hv) as (j' & a2 & it2 & w & Ej & Hk2 & Ho2 & Ia2 & _). inversion Ej; subst j'.
  destruct (wf_rkey items lo tp Wp _ _ _ Ht) as (_ & it3 & Ho3 & _).
  destruct (find_owner_spec items a 0 k it3 Ho3) as (_ & Hn3 & M3). rewrite Nat.sub_0_r in Hn3.
  destruct (find_owner_spec items a2 0 k it2 Ho2) as (_ & Hn2 & _). rewrite Nat.sub_0_r in Hn2.
  assert (it3 = it2) by congruence. subst it3.
  rewrite (same_owner items Hdis a it it2 Hit (nth_error_In _ _ Hn3) Ma M3) in Ia. congruence.
Qed.

End Inv.

Lemma con_go_err_not_ok ff evs : forall s first acc e v s', con_go ff evs s first acc (Some e) <> (ROk v, s').
Proof.
  induction evs as [|ev t IH]; intros s first acc e v s'; cbn [con_go]; [discriminate|].
  destruct (ev s) as [r s1]. destruct r; try discriminate; try apply IH.
  destruct (ff && first); [discriminate|apply IH].
Qed.

Lemma con_go_inv n evs aevs evc : Forall2 (sim_ev n) evs aevs ->
  forall s l first acc v s', Sim n s l ->
  con_go false (evs ++ [evc]) s first acc None = (ROk v, s') ->
  exists vs lk sk vc s'', arun aevs l = Some (vs, lk) /\ Sim n sk lk /\ evc sk = (ROk vc, s'') /\
                          v = VTuple (rev acc ++ vs ++ [vc]).
Proof.
  intros Hs. induction Hs as [|ev aev evs aevs H1 Hl IH]; intros s l first acc v s' HS E; cbn [app con_go arun] in *.
  - destruct (evc s) as [r s1] eqn:Ec. destruct r as [x|e|w|]; try discriminate.
    cbn [con_go] in E. inversion E; subst. exists [], l, s, x, s1.
    split; [reflexivity|]. split; [exact HS|]. split; [exact Ec|]. reflexivity.
  - destruct (H1 s l HS) as [R S1]. destruct (ev s) as [r s1]. destruct (aev l) as [a l1]. cbn [fst snd] in *.
    destruct r as [x|e|w|]; try discriminate.
    + destruct a as [x'|m c|]; cbn in R; try contradiction. subst x'.
      destruct (IH s1 l1 false (x :: acc) v s' S1 E) as (vs & lk & sk & vc & s'' & Ea & Sk & Ev & Hv).
      exists (x :: vs), lk, sk, vc, s''. rewrite Ea. split; [reflexivity|]. split; [exact Sk|]. split; [exact Ev|].
      rewrite Hv. cbn [rev]. rewrite <- !app_assoc. reflexivity.
    + cbn [andb] in E. exfalso. eapply con_go_err_not_ok. exact E.
Qed.

Section Alt.
Variable env : bytes -> option bytes.
Variable n : nat.

Lemma fold_or_ok more : forall c s v s',
  eval env (fold_left POr more c) s = (ROk v, s') ->
  exists q sq, In q (c :: more) /\ eval env q s = (ROk v, sq).
Proof.
  induction more as [|q more IH]; intros c s v s' H; cbn [fold_left] in H.
  - exists c, s'. split; [left; reflexivity|exact H].
  - destruct (IH _ _ _ _ H) as (q' & sq & [<-|Hin] & Hq).
    + rewrite eval_POr in Hq. apply or_body_ok in Hq. destruct Hq as [(sa & Ha & _)|(sb & Hb & _)].
      * exists c, sa. split; [left; reflexivity|exact Ha].
      * exists q, sb. split; [right; left; reflexivity|exact Hb].
    + exists q', sq. split; [right; right; exact Hin|exact Hq].
Qed.

(* the text a command name is compared with *)
Definition cmd_word (a : arg) : option bytes :=
  match a with Word w | Short _ _ w | Long _ false w => Some w | _ => None end.

Lemma is_cmd_word names a :
  existsb (fun w => is_cmd w a) names = match cmd_word a with Some w => mem_bytes w names | None => false end.
Proof.
  destruct a as [c adj w|l [|] w|w|w|w]; cbn [cmd_word]; try reflexivity; induction names as [|x t IH]; cbn; auto.
Qed.

Lemma cmd_nohit name aliases q inf s l v s' :
  Sim n s l ->
  match l with [] => True | (i, a) :: _ => forall w, cmd_word a = Some w -> mem_bytes w (name :: aliases) = false end ->
  eval env (PCmd name aliases [] None false (Options q inf)) s <> (ROk v, s').
Proof.
  intros HS Hh. pose proof (cmd_sim env n name aliases q inf s l HS) as H.
  destruct l as [|[i a] rest]; [destruct H as (e & s1 & -> & _); discriminate|].
  rewrite is_cmd_word in H. destruct (cmd_word a) as [w|]; [rewrite (Hh w eq_refl) in H|];
    destruct H as (e & s1 & -> & _); discriminate.
Qed.

Lemma cmd_inv name aliases q inf s i w rest v s' :
  Sim n s ((i, Word w) :: rest) -> mem_bytes w (name :: aliases) = true ->
  eval env (PCmd name aliases [] None false (Options q inf)) s = (ROk v, s') ->
  exists s3 s4, Sim n s3 rest /\ eval env q s3 = (ROk v, s4) /\ first_item_ix s4 = None.
Proof.
  intros HS M E. pose proof (cmd_sim env n name aliases q inf s _ HS) as H. cbn beta iota in H.
  change (existsb (fun w0 => is_cmd w0 (Word w)) (name :: aliases)) with (mem_bytes w (name :: aliases)) in H.
  rewrite M in H. destruct H as (s3 & S3 & _ & H). rewrite E in H.
  destruct (run_sub env (Options q inf) s3) as [[v'|f|p|] s5] eqn:Er; try discriminate.
  inversion H; subst v' s5. apply run_sub_ok in Er. exists s3, s'. tauto.
Qed.

Lemma alt_entered t0 more s l v s' :
  Sim n s l -> eval env (fold_left POr (map mkcmd more) (mkcmd t0)) s = (ROk v, s') ->
  exists tq h a rest w sq, In tq (t0 :: more) /\ l = (h, a) :: rest /\ cmd_word a = Some w /\ cmatch w tq = true /\
    eval env (mkcmd tq) s = (ROk v, sq).
Proof.
  intros HS Ev. destruct (fold_or_ok (map mkcmd more) (mkcmd t0) s v s' Ev) as (q & sq & Hq & Eq).
  assert (Hqt : exists tq, In tq (t0 :: more) /\ q = mkcmd tq).
  { destruct Hq as [<-|Hq]; [exists t0; split; [left; reflexivity|reflexivity]|].
    apply in_map_iff in Hq. destruct Hq as (tq & <- & Hin). exists tq. split; [right; exact Hin|reflexivity]. }
  destruct Hqt as (tq & Htq & ->). exists tq. destruct tq as [[name aliases] sub]. cbn [mkcmd cmatch] in *.
  destruct l as [|[h a] rest]; [destruct (cmd_nohit name aliases (compile sub) default_info s [] v sq HS I Eq)|].
  destruct (cmd_word a) as [w|] eqn:Ew.
  - destruct (mem_bytes w (name :: aliases)) eqn:Mw; [exists h, a, rest, w, sq; auto 6|].
    destruct (cmd_nohit name aliases (compile sub) default_info s _ v sq HS) ; [|exact Eq].
    intros w0 Hw0. rewrite Ew in Hw0. inversion Hw0; subst. exact Mw.
  - destruct (cmd_nohit name aliases (compile sub) default_info s _ v sq HS); [|exact Eq].
    intros w0 Hw0. rewrite Ew in Hw0. discriminate.
Qed.
End Alt.

Fixpoint asc (l : lv) : Prop :=
  match l with [] => True | x :: t => (forall y, In y t -> fst x < fst y) /\ asc t end.

Lemma asc_filter f l : asc l -> asc (filter f l).
Proof.
  induction l as [|x t IH]; cbn [filter asc]; [auto|]. intros [H1 H2]. destruct (f x); cbn [asc]; [|auto].
  split; [|auto]. intros y Hy. apply filter_In in Hy. apply H1. apply Hy.
Qed.

Lemma asc_live_from ts : forall ix, asc (live_from ix ts).
Proof.
  induction ts as [|[a m] r IH]; intros ix; cbn [live_from]; [exact I|]. destruct m; cbn [app]; [apply IH|].
  cbn [asc]. split; [|apply IH]. intros y Hy. apply live_from_lb in Hy. cbn. lia.
Qed.

Lemma plain_cs_in cs t : plain_cs cs = true -> In t (cs_list cs) ->
  forallb plainb (fst (fst t) :: snd (fst t)) = true /\ plain_cmds (snd t) = true.
Proof.
  induction cs as [|name aliases sub rest IH]; cbn [plain_cs cs_list]; [intros _ []|].
  intros H [<-|Hin].
  - apply andb_prop in H. destruct H as [H _]. apply andb_prop in H. exact H.
  - apply andb_prop in H. destruct H as [_ H]. apply IH; assumption.
Qed.

Lemma mem_plain f w names : forallb f names = true -> mem_bytes w names = true -> f w = true.
Proof.
  intros Hp Hm. apply mem_bytes_in in Hm. rewrite forallb_forall in Hp. apply Hp. exact Hm.
Qed.

Lemma key_not_cmd a w names : is_key a = true -> key_os_ok a -> forallb plainb names = true ->
  cmd_word a = Some w -> mem_bytes w names = false.
Proof.
  intros K Ho Hp Hw. destruct (mem_bytes w names) eqn:M; [|reflexivity]. exfalso.
  pose proof (mem_plain _ w names Hp M) as P.
  destruct a as [c adj os|l adj os|x|x|x]; try discriminate; cbn in Ho, Hw.
  - inversion Hw; subst. destruct Ho as [->|[t ->]]; cbn in P; [discriminate|]. rewrite N.eqb_refl in P. discriminate.
  - destruct adj; [discriminate|]. inversion Hw; subst. destruct Ho as [->|[t ->]]; cbn in P; [discriminate|]. rewrite N.eqb_refl in P. discriminate.
Qed.

Section Head.
Variable items : list citem.
Hypothesis Hdis : disjoint_names items.
Variable lo : nat.
Variable tp : tl3.
Hypothesis Wp : WF items lo tp.
Hypothesis Hnamed : forall x, In x tp -> exists j, snd x = RKey j \/ snd x = RVal j.
Hypothesis Htok : forall x, In x tp -> key_os_ok (snd (fst x)).
Variable R : lv.

Lemma items_good fuel its l vs lk :
  incl its items ->
  Good tp R l -> arun (map (aeval fuel) (map compile_item its)) l = Some (vs, lk) -> Good tp R lk.
Proof.
  intros Hin Hg E. eapply (arun_pres (Good tp R)); [|exact Hg|exact E].
  rewrite Forall_forall. intros ev Hev. apply in_map_iff in Hev. destruct Hev as (q & <- & Hq).
  apply in_map_iff in Hq. destruct Hq as (it & <- & Hit). apply item_pres.
  - intros Ia pr ab. apply (flag_good items Hdis lo tp Wp R it pr ab); [apply Hin; exact Hit|exact Ia].
  - intros Ia ty. apply (arg_good items lo tp Wp R).
Qed.

(* a token of the attributed prefix that stands first is a key -- never a command word *)
Lemma head_prefix_not_cmd lk h a rest names w :
  Good tp R lk -> lk = (h, a) :: rest -> asc lk -> In (h, a) (untag tp) ->
  forallb plainb names = true -> cmd_word a = Some w -> mem_bytes w names = false.
Proof.
  intros (U & I & P) -> [Hmin _] Hin Hp Hw.
  apply untag_in in Hin. destruct Hin as [r Hr]. destruct (Hnamed _ Hr) as [k [Er|Er]]; cbn in Er; subst r.
  - destruct (wf_rkey items lo tp Wp _ _ _ Hr) as (K & _). eapply key_not_cmd; eauto. apply (Htok _ Hr).
  - exfalso. destruct (wf_rval items lo tp Wp _ _ _ Hr) as (j & a' & it & w' & -> & _).
    destruct (P j a k Hr (or_introl eq_refl)) as (a2 & _ & Hl). destruct Hl as [E|Hl]; [inversion E; lia|].
    apply Hmin in Hl. cbn in Hl. lia.
Qed.
End Head.

(* no value follows: what an argument's name is rejected for *)
Definition novalue (rest : list (arg * bool)) : Prop :=
  match rest with (b, false) :: _ => is_value b = None | _ => True end.

Lemma good_init items lo tp R : WF items lo tp -> uniq (untag tp ++ R) -> Good tp R (untag tp ++ R).
Proof.
  intros W U. split; [exact U|]. split; [apply incl_refl|].
  intros j b k Hv _. destruct (wf_rval items lo tp W _ _ _ Hv) as (j' & a & it & w & E & Hk & _). inversion E; subst j'.
  exists a. split; [exact Hk|]. apply in_or_app. left. unfold untag. apply in_map_iff. exists (j, a, RKey k). auto.
Qed.

Definition toks_ok (ts : list (arg * bool)) : Prop := Forall (fun t => key_os_ok (fst t)) ts.

Lemma toks_ok_app a b : toks_ok (a ++ b) -> toks_ok a /\ toks_ok b.
Proof. unfold toks_ok. intros H. apply Forall_app in H. exact H. Qed.

(* after the named fields have run on a line = attributed prefix ++ anything, the first token they
   leave, if it carries a command name, does not come from the prefix; and it is the least of what is left *)
Lemma head_in_stop items (Hdis : disjoint_names items) fuel ix pre a stop vs lk h hd rest_lk names w' :
  scan_cmd_good items ix pre a -> toks_ok pre ->
  arun (map (aeval fuel) (map compile_item items)) (live_from ix (pre ++ stop)) = Some (vs, lk) ->
  lk = (h, hd) :: rest_lk -> forallb plainb names = true -> cmd_word hd = Some w' -> mem_bytes w' names = true ->
  In (h, hd) (live_from (ix + length pre) stop) /\ (forall y, In y lk -> h <= fst y) /\ uniq lk /\
  incl lk (live_from ix (pre ++ stop)).
Proof.
  intros (W & Ho & Hu & Hr) Htk Ea Elk Hp Ew Mw. set (tp := tag_from ix pre (at_roles a)) in *.
  assert (Hlive : live_from ix (pre ++ stop) = untag tp ++ live_from (ix + length pre) stop).
  { rewrite live_from_app, Hu. reflexivity. }
  assert (Hg : Good tp (live_from (ix + length pre) stop) lk).
  { eapply (items_good items Hdis ix tp W); [apply incl_refl| |exact Ea].
    rewrite Hlive. apply (good_init items ix); [exact W|]. rewrite <- Hlive. apply live_from_uniq. }
  assert (Alk : asc lk).
  { destruct (arun_filt _ (item_filt_all fuel items) _ _ _ Ea) as [g ->]. apply asc_filter, asc_live_from. }
  assert (Htokp : forall y, In y tp -> key_os_ok (snd (fst y))).
  { intros y Hy. assert (Hy' : In (fst y) (untag tp)) by (unfold untag; apply in_map; exact Hy).
    rewrite Hu in Hy'. apply live_from_tok in Hy'. unfold toks_ok in Htk. rewrite Forall_forall in Htk. apply (Htk _ Hy'). }
  pose proof Hg as (U & Hincl & _). unfold l0 in Hincl. rewrite <- Hlive in Hincl.
  split; [|split; [|split; [exact U|exact Hincl]]].
  - assert (Hh : In (h, hd) lk) by (rewrite Elk; left; reflexivity).
    apply Hincl in Hh. rewrite Hlive in Hh. apply in_app_or in Hh. destruct Hh as [Hh|Hh]; [|exact Hh].
    pose proof (head_prefix_not_cmd items ix tp W Hr Htokp _ lk h hd rest_lk names w' Hg Elk Alk Hh Hp Ew). congruence.
  - rewrite Elk in Alk |- *. destruct Alk as [Hmin _]. intros y [<-|Hy]; [apply le_n|]. apply Hmin in Hy. cbn in Hy. lia.
Qed.

Section Main.
Variable env : bytes -> option bytes.
Variable n : nat.

Theorem tree_sound f : forall l anc ts ix s s' v,
  tree_ok l -> plain_cmds l = true -> cross anc l -> toks_ok ts ->
  Sim n s (live_from ix ts) -> length ts <= n ->
  denote_level f l anc ts <> Unspecified ->
  eval env (compile l) s = (ROk v, s') -> first_item_ix s' = None ->
  denote_level f l anc ts = Accept v.
Proof.
  induction f as [|f IH]; intros [items tail] anc ts ix s s' v Hok Hpl Hc Htk S0 Hlen Hs Ee Hfi;
    [contradiction Hs; reflexivity|].
  destruct tail as [|ps|cs]; [exact (flat_sound env n items anc TNone ts ix s s' v f Hok S0 Hlen Hs Ee Hfi)
                            |exact (flat_sound env n items anc (TPos ps) ts ix s s' v f Hok S0 Hlen Hs Ee Hfi)|].
  cbn [tree_ok] in Hok. destruct Hok as (Hne & Hdis & Hnames & Hlen1 & Hsubs & Huniq & Hcross).
  cbn [plain_cmds] in Hpl.
  (* the compiled parser: the items, then the alternative of commands *)
  cbn [compile] in Ee. rewrite compile_cmds_list in Ee.
  destruct (cs_list cs) as [|t0 more] eqn:Ecs; [destruct cs; [contradiction|discriminate]|].
  cbn [map] in Ee. set (alt := fold_left POr (map mkcmd more) (mkcmd t0)) in *.
  rewrite (eval_fields_last env (map compile_item items) alt s) in Ee by (rewrite map_length; exact Hlen1).
  unfold con_body, con_reset in Ee.
  match type of Ee with context [con_go ?a ?b ?c ?d ?e ?g] => destruct (con_go a b c d e g) as [rr sx] eqn:Eg end.
  inversion Ee; subst rr. clear Ee.
  destruct (con_go_inv n _ _ (eval env alt) (items_sim env n items Hnames) s _ true [] v sx S0 Eg)
    as (vs & lk & sk & vc & s'' & Ea & Sk & Ev & Hv).
  cbn [rev app] in Hv.
  (* which command was entered: its name stands first on what the fields leave *)
  destruct (alt_entered env n t0 more sk lk vc s'' Sk Ev) as (tq & h & a & rest_lk & w' & sq & Htq & Elk & Ew & Mw & Eq).
  rewrite <- Ecs in Htq. destruct tq as [[nameq aliasesq] subq]. cbn [mkcmd cmatch] in Eq, Mw.
  destruct (plain_cs_in cs _ Hpl Htq) as [Hplq Hplsub]. cbn [fst snd] in Hplq, Hplsub.
  cbn [denote_level] in Hs |- *.
  destruct (scan items anc (TCmds cs) ts) as [a0|a0 sub rest| |] eqn:Sc.
  - (* no command word on the line: the fields leave nothing that is one *)
    exfalso.
    pose proof (scan_good_named items (TCmds cs) ix ts a0 ltac:(discriminate) (scan_wf items anc _ ts ix a0 Sc)) as Hgood.
    rewrite <- (app_nil_r ts) in Ea, Htk.
    destruct (head_in_stop items Hdis _ ix ts a0 [] vs lk h a rest_lk _ w' Hgood (proj1 (toks_ok_app _ _ Htk)) Ea Elk Hplq Ew Mw) as ([] & _).
  - (* the scan stopped at a command word *)
    destruct (scan_cmd_wf items anc cs ts ix a0 sub rest Sc) as (pre & w & -> & Hfc & Hgood).
    pose proof Hgood as (W & Ho & Hu & Hr).
    destruct (toks_ok_app _ _ Htk) as [Htkp Htks].
    destruct (head_in_stop items Hdis _ ix pre a0 _ vs lk h a rest_lk _ w' Hgood Htkp Ea Elk Hplq Ew Mw) as (Hst & Hmin & _ & Hincl).
    rewrite find_cmd_list in Hfc.
    destruct (find (cmatch w) (cs_list cs)) as [tm|] eqn:Ff; [|discriminate]. cbn in Hfc. inversion Hfc; subst sub. clear Hfc.
    destruct (find_some _ _ Ff) as [Htm Mtm].
    assert (Hoksub : tree_ok (snd tm)) by (eapply tree_ok_cs_in; eauto).
    assert (Hcsub : cross (anc ++ items) (snd tm)) by (eapply cross_sub; eauto).
    assert (Hsub_spec : denote_level f (snd tm) (anc ++ items) rest <> Unspecified).
    { intros E. rewrite E in Hs. apply Hs. reflexivity. }
    pose proof (spec_free f (snd tm) (anc ++ items) rest Hoksub Hcsub Hsub_spec) as Hfree.
    set (j := ix + length pre) in *.
    assert (Hinert : forall b, In (b, false) rest -> inert items b).
    { intros b Hb it Hit. apply (proj2 (Hfree b Hb) it). apply in_or_app. right. exact Hit. }
    destruct (prefix_tagged items ix pre a0 w rest Hgood Hinert) as (W0 & Hlive & Ho0 & Hfil). cbn zeta in *. fold j in W0, Hlive, Ho0, Hfil.
    set (tl := tag_from ix pre (at_roles a0) ++ foreign_tag (live_from j ((Word w, false) :: rest))) in *.
    assert (Hl0 : length tl < S (S n)).
    { rewrite <- (untag_length tl), <- Hlive. pose proof (live_from_le (pre ++ (Word w, false) :: rest) ix). lia. }
    pose proof Ea as Ea'. rewrite Hlive, <- (filter_keep_0 tl) in Ea'.
    destruct (items_arun_inv items Hdis (S (S n)) ix tl W0 Hl0 items 0 vs lk (fun p it H => H) Ea')
      as [[Hvs Elk']|(x & it & Hx & Hit & Mx)].
    + (* the fields took exactly their occurrences: the command word stands first *)
      cbn [Nat.add] in Elk'. rewrite Hfil, untag_foreign in Elk'. cbn [live_from app] in Elk'.
      rewrite Elk' in Elk. inversion Elk; subst h a rest_lk. cbn [cmd_word] in Ew. inversion Ew; subst w'. clear Ew Elk.
      assert (Etm : tm = (nameq, aliasesq, subq)).
      { pose proof (find_first_unique w (cs_list cs) (nameq, aliasesq, subq)) as Hfu.
        rewrite Ecs in Hfu at 1. specialize (Hfu (Huniq w)). specialize (Hfu Htq Mw). congruence. }
      subst tm. cbn [snd] in *.
      rewrite Elk' in Sk.
      destruct (cmd_inv env n nameq aliasesq (compile subq) default_info sk j w _ vc sq Sk Mw Eq) as (s3 & s4 & S3 & E4 & F4).
      assert (Hrest : toks_ok rest) by (inversion Htks; assumption).
      assert (Hlr : length rest <= n) by (rewrite app_length in Hlen; cbn in Hlen; lia).
      pose proof (IH subq (anc ++ items) rest (S j) s3 s4 vc Hoksub Hplsub Hcsub Hrest S3 Hlr Hsub_spec E4 F4) as Hsubv.
      rewrite Hsubv. rewrite <- Ho0, Hvs. rewrite Hv. reflexivity.
    + (* a field left one of its keys behind: it stands before the command word, and the head before it *)
      exfalso. apply live_from_lb in Hst. cbn [fst] in Hst. specialize (Hmin x Hx).
      apply Hincl in Hx. rewrite live_from_app in Hx. apply in_app_or in Hx. destruct Hx as [Hx|Hx].
      * apply live_from_ub in Hx. fold j in Hx. lia.
      * apply live_from_tok in Hx. destruct Hx as [E|Hb]; [inversion E as [E']; rewrite <- E' in Mx; discriminate|].
        rewrite (Hinert _ Hb it Hit) in Mx. discriminate.
  - (* the scan rejected a token: it is still there when the alternative runs, and it is no command word *)
    exfalso.
    destruct (scan_reject_decomp items anc _ ts ix Sc) as (pre & x & rest & a' & -> & Hgood & Hh).
    destruct (reject_stuck items Hdis _ ix pre a' x rest Hgood Hh) as [Hxl St]. cbn [ptail] in St.
    destruct (toks_ok_app _ _ Htk) as [Htkp Htks].
    destruct (head_in_stop items Hdis _ ix pre a' _ vs lk h a rest_lk _ w'
                (scan_good_named items (TCmds cs) ix pre a' ltac:(discriminate) Hgood) Htkp Ea Elk Hplq Ew Mw) as (Hst & Hmin & U & _).
    set (c := ix + length pre) in *.
    assert (Hxk : In (c, x) lk).
    { pose proof (acon_go_arun _ [] None _ _ _ [] Ea) as Hac. rewrite app_nil_r in Hac.
      pose proof (stuck_survives items Hdis (S (S n)) TNone (c, x) _ [] None (live_from_uniq _ ix) Hxl St) as Hsv.
      cbn [tail_fields] in Hsv. rewrite app_nil_r, Hac in Hsv. exact Hsv. }
    apply live_from_lb in Hst. cbn [fst] in Hst. specialize (Hmin _ Hxk). cbn [fst] in Hmin.
    assert (h = c) by lia. subst h.
    assert (E : (c, a) = (c, x)) by (apply (uniq_same lk); [exact U|rewrite Elk; left; reflexivity|exact Hxk|reflexivity]).
    inversion E; subst a.
    assert (Kox : key_os_ok x) by (inversion Htks; assumption).
    destruct Hh as [Kx Fo|k it Kx Fo Ia Hnv|w0 -> Fc|w0 -> _|w0 ->].
    + pose proof (key_not_cmd x w' (nameq :: aliasesq) Kx Kox Hplq Ew). congruence.
    + pose proof (key_not_cmd x w' (nameq :: aliasesq) Kx Kox Hplq Ew). congruence.
    + cbn [cmd_word] in Ew. inversion Ew; subst w'. rewrite find_cmd_list in Fc.
      destruct (find (cmatch w0) (cs_list cs)) eqn:Ff; [discriminate|].
      pose proof (find_none _ _ Ff _ Htq) as Fn. cbn [cmatch] in Fn. congruence.
    + discriminate.
    + discriminate.
  - contradiction Hs. reflexivity.
Qed.
End Main.

Lemma mark_go_toks mk its : forall ix, Forall key_os_ok its -> toks_ok (mark_go mk its ix).
Proof.
  induction its as [|a t IH]; intros ix H; cbn [mark_go]; [constructor|].
  inversion H; subst. constructor; [assumption|apply IH; assumption].
Qed.

(* C01, the converse for whole subcommand trees *)
Theorem denote_sound_tree feat env l argv v :
  tree_ok l -> plain_cmds l = true ->
  denote l argv <> Unspecified ->
  run_inner feat env (compile_options l) None argv = OutOk v ->
  denote l argv = Accept v.
Proof.
  intros Hok Hpl Hs Hr.
  unfold denote in *. destruct (short_tables (compile_options l)) as [sf sa] eqn:Est.
  destruct (t_ambiguity (tokenize sf sa argv)) eqn:Ea; [contradiction Hs; reflexivity|].
  destruct (run_inner_ok feat env l argv sf sa v Est Ea Hr) as (s0 & s1 & S0 & Ee & Hfi).
  eapply (tree_sound env _ _ l [] _ 0 s0 s1 v Hok Hpl); [| |exact S0| |exact Hs|exact Ee|exact Hfi].
  - intros it it' a _ [].
  - apply mark_go_toks. apply tokenize_os_ok.
  - rewrite mark_tokens_length. apply le_n.
Qed.

(* both directions: on every vector the grammar specifies, Ok v exactly for the sentences denoting v *)
Theorem denote_complete_tree feat env l argv v :
  tree_ok l -> plain_cmds l = true -> denote l argv <> Unspecified ->
  (denote l argv = Accept v <-> run_inner feat env (compile_options l) None argv = OutOk v).
Proof.
  intros Hok Hpl Hs. split; [apply denote_accept_tree; exact Hok|apply denote_sound_tree; assumption].
Qed.

Corollary denote_reject_tree feat env l argv :
  tree_ok l -> plain_cmds l = true -> denote l argv = Reject ->
  forall v, run_inner feat env (compile_options l) None argv <> OutOk v.
Proof.
  intros Hok Hpl Hd v Hr.
  assert (Hs : denote l argv <> Unspecified) by (rewrite Hd; discriminate).
  rewrite (denote_sound_tree feat env l argv v Hok Hpl Hs Hr) in Hd. discriminate.
Qed.
Print Assumptions denote_complete_tree.
Print Assumptions denote_reject_tree.
