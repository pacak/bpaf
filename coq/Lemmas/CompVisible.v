(* CompVisible.v -- hidden items are never offered, for EVERY parser definition: every flag / argument / command NAME
   among the hints the evaluator of the autocomplete build collects is the name of a VISIBLE item of the definition
   (one not under hide()), wherever it stands -- under any wrapper, in any alternative, group or subcommand.
   The induction over the parser is done once, for any predicate C on hints that allows the names of the parser's
   visible items (and any R, Q that CompPres.judges accepts); under hide() the hidden parser is run with the predicate
   that allows everything, and its hints are dropped. *)
From BpafLemmas Require Import Reach CompleteLaws CompAlways CompPres CompInert.
From BpafModel Require Import Message CompEval.

Definition nm_of (n : named) : list (option N * option str) :=
  match shortlong_of n with Some sl => [sl_parts sl] | None => [] end.

Fixpoint vis_names (p : cparser) : list (option N * option str) :=
  match p with
  | XFlag n _ _ => nm_of n
  | XArg n _ _ _ => nm_of n
  | XPos _ _ _ _ | XAny _ _ _ _ | XPure _ | XPureWith _ | XFail _ => []
  | XCmd _ _ _ _ _ sub => ovis_names sub
  | XCon fields | XAdj fields => lvis_names fields
  | XOr a b => vis_names a ++ vis_names b
  | XOptional q _ | XMany q _ | XSome q _ _ | XCollect q _ | XCount q | XLast q
  | XFallback q _ _ | XFallbackWith q _ _ | XGuard q _ _ | XParse q _ | XMap q _
  | XUsage q _ | XGroupHelp q _ | XBoxed q | XComplete q _ _ | XCompShell q _ => vis_names q
  | XHide _ => []
  end
with lvis_names (ps : cplist) : list (option N * option str) :=
  match ps with XNil => [] | XCons q t => vis_names q ++ lvis_names t end
with ovis_names (o : coparser) : list (option N * option str) :=
  match o with XOptions q _ => vis_names q end.

Fixpoint vis_cmds (p : cparser) : list str :=
  match p with
  | XFlag _ _ _ | XArg _ _ _ _ | XPos _ _ _ _ | XAny _ _ _ _ | XPure _ | XPureWith _ | XFail _ => []
  | XCmd name _ _ _ _ sub => chars_of name :: ovis_cmds sub
  | XCon fields | XAdj fields => lvis_cmds fields
  | XOr a b => vis_cmds a ++ vis_cmds b
  | XOptional q _ | XMany q _ | XSome q _ _ | XCollect q _ | XCount q | XLast q
  | XFallback q _ _ | XFallbackWith q _ _ | XGuard q _ _ | XParse q _ | XMap q _
  | XUsage q _ | XGroupHelp q _ | XBoxed q | XComplete q _ _ | XCompShell q _ => vis_cmds q
  | XHide _ => []
  end
with lvis_cmds (ps : cplist) : list str :=
  match ps with XNil => [] | XCons q t => vis_cmds q ++ lvis_cmds t end
with ovis_cmds (o : coparser) : list str :=
  match o with XOptions q _ => vis_cmds q end.

Section Visible.
Variable Vn : list (option N * option str).
Variable Vc : list str.

Definition name_ok (c : comp) : Prop :=
  match c with
  | CoFlag _ sh lo | CoArgument _ sh lo _ => In (sh, lo) Vn
  | CoCommand _ n _ => In n Vc
  | CoValue _ _ _ | CoMeta _ _ _ | CoShell _ _ _ => True
  end.

Definition kall (k : option cst) : Prop :=
  match k with Some c => Forall name_ok (cs_comps c) | None => True end.

Definition vgood (cev : xevaluator) : Prop := forall x, kall (snd x) -> kall (snd (snd (cev x))).
Definition vrgood (crun : xst -> sres * xst) : Prop := forall x, kall (snd x) -> kall (snd (snd (crun x))).

Lemma kall_comps k : kall k <-> Forall name_ok (kcomps k).
Proof. destruct k as [x|]; cbn; [reflexivity|]. split; intros; [constructor|exact I]. Qed.

Lemma name_ok_set_group g c : name_ok c -> name_ok (set_group g c).
Proof. destruct c; cbn; auto. Qed.
End Visible.

Lemma nm_of_In n sl : shortlong_of n = Some sl -> In (fst (sl_parts sl), snd (sl_parts sl)) (nm_of n).
Proof. intros E. unfold nm_of. rewrite E. left. apply surjective_pairing. Qed.

Definition covers (C : comp -> Prop) Vn Vc : Prop :=
  (forall g c, C c -> C (set_group g c)) /\ (forall c, name_ok Vn Vc c -> C c).

Lemma covers_closed C Vn Vc : covers C Vn Vc -> hint_closed C.
Proof. intros [Hg Hn]. split; [exact Hg|]. split; [|split]; intros; apply Hn; exact I. Qed.
Lemma covers_top Vn Vc : covers (fun _ => True) Vn Vc.
Proof. split; intros; exact I. Qed.
Lemma covers_name_ok Vn Vc : covers (name_ok Vn Vc) Vn Vc.
Proof. split; [intros g c; apply name_ok_set_group|auto]. Qed.

Section Every.
Variable rv : nat.
Variable its : list arg.
Variable R : eres -> Prop.
Variable Q : sres -> Prop.
Hypothesis HJ : judges rv its R Q.
Let HR : judges_results R := proj1 HJ.

Notation pres := (pres rv its R).
Notation rpres := (rpres rv its Q).

Lemma flag_pres C Vn Vc env docgen n p a :
  covers C Vn Vc -> incl (nm_of n) Vn -> pres C (c_eval_flag env docgen n p a).
Proof.
  intros [_ Hn] Hi. apply leaf_pres with (ev := eval_flag env n p a);
    [exact HR|apply eval_flag_reach; exact I|intros s; apply eval_flag_plain|].
  intros s k. apply c_eval_flag_spec. intros e sl E. apply Hn. cbn [name_ok]. apply Hi, nm_of_In, E.
Qed.
Lemma arg_pres C Vn Vc env docgen n mv ty adj :
  covers C Vn Vc -> incl (nm_of n) Vn -> pres C (c_eval_arg env docgen n mv ty adj).
Proof.
  intros [_ Hn] Hi. apply leaf_pres with (ev := eval_arg env n mv ty adj);
    [exact HR|apply eval_arg_reach; exact I|intros s; apply eval_arg_plain|].
  intros s k. apply c_eval_arg_spec; [|intros e; apply Hn; exact I].
  intros e sl E. apply Hn. cbn [name_ok]. apply Hi, nm_of_In, E.
Qed.
Lemma pos_pres C Vn Vc docgen mv ty pos help : covers C Vn Vc -> pres C (c_eval_pos docgen mv ty pos help).
Proof.
  intros [_ Hn]. apply leaf_pres with (ev := eval_pos mv ty pos help);
    [exact HR|apply eval_pos_reach; exact I|intros s; apply eval_pos_plain|].
  intros s k. apply c_eval_pos_spec; intros e; apply Hn; exact I.
Qed.
Lemma any_pres C mv help check anywhere : pres C (c_lift (eval_any mv help check anywhere)).
Proof.
  apply leaf_pres with (ev := eval_any mv help check anywhere);
    [exact HR|apply eval_any_reach; exact I|intros s; apply eval_any_plain|intros s k; apply c_lift_spec].
Qed.

Theorem ceval_pres_all env docgen :
  (forall p C Vn Vc, covers C Vn Vc -> incl (vis_names p) Vn -> incl (vis_cmds p) Vc -> pres C (ceval env docgen p)) /\
  (forall ps C Vn Vc, covers C Vn Vc -> incl (lvis_names ps) Vn -> incl (lvis_cmds ps) Vc ->
                      Forall (pres C) (cevals env docgen ps)) /\
  (forall o C Vn Vc, covers C Vn Vc -> incl (ovis_names o) Vn -> incl (ovis_cmds o) Vc ->
                     rpres C (crun_sub env docgen o)).
Proof.
  apply cparser_cplist_coparser_ind; intros; cbn [vis_names lvis_names ovis_names vis_cmds lvis_cmds ovis_cmds] in *.
  - exact (flag_pres C Vn Vc env docgen n present absent H H0).
  - exact (arg_pres C Vn Vc env docgen n metavar ty adjacent H H0).
  - exact (pos_pres C Vn Vc docgen metavar ty pos help H).
  - apply any_pres.
  - destruct (incl_cons_inv H2) as [Hname Hsub]. apply cmd_pres with (Q := Q); [exact HR|exact (proj1 (proj2 HJ))| |exact (H C Vn Vc H0 H1 Hsub)].
    intros e sh. apply (proj2 H0). exact Hname.
  - destruct fields as [|q1 [|q2 t]].
    + intros x Hx. split; [apply hinv_current, Hx|apply (R_ok R HR)].
    + exact (Forall_inv (H C Vn Vc H0 H1 H2)).
    + intros x Hx. rewrite ceval_XCon_many. exact (con_pres rv its R HR C false _ (H C Vn Vc H0 H1 H2) x Hx).
  - apply adjacent_pres, con_pres, (H C Vn Vc); assumption.
  - destruct (incl_app_inv _ _ H2), (incl_app_inv _ _ H3).
    apply or_pres; [exact HR|apply (H C Vn Vc)|apply (H0 C Vn Vc)]; assumption.
  - apply optional_pres, (H C Vn Vc); assumption.
  - apply many_pres, (H C Vn Vc); assumption.
  - apply some_pres, (H C Vn Vc); assumption.
  - apply many_pres, (H C Vn Vc); assumption.
  - apply count_pres, (H C Vn Vc); assumption.
  - apply last_pres, (H C Vn Vc); assumption.
  - apply fallback_with_pres, (H C Vn Vc); assumption.
  - apply fallback_with_pres, (H C Vn Vc); assumption.
  - apply guard_pres, (H C Vn Vc); assumption.
  - apply parse_pres, (H C Vn Vc); assumption.
  - apply map_pres, (H C Vn Vc); assumption.
  - (* hide(): the hidden parser with the C that allows everything *)
    apply hide_pres; [exact HR|]. exact (H _ _ _ (covers_top _ _) (incl_refl _) (incl_refl _)).
  - exact (H C Vn Vc H0 H1 H2).
  - apply group_help_pres; [exact (covers_closed _ _ _ H0)|exact (H C Vn Vc H0 H1 H2)].
  - intros x Hx. split; [apply hinv_current, Hx|apply (R_ok R HR)].
  - intros x Hx. cbn [ceval]. destruct r; split; try exact Hx; [apply (R_ok R HR)|].
    apply (R_err R HR). discriminate.
  - intros x Hx. split; [apply hinv_current, Hx|]. apply (R_err R HR). discriminate.
  - exact (H C Vn Vc H0 H1 H2).
  - apply complete_pres; [exact (covers_closed _ _ _ H0)|exact (H C Vn Vc H0 H1 H2)].
  - apply comp_shell_pres; [exact (covers_closed _ _ _ H0)|exact (H C Vn Vc H0 H1 H2)].
  - constructor.
  - destruct (incl_app_inv _ _ H2), (incl_app_inv _ _ H3). rewrite cevals_cons.
    constructor; [apply (H C Vn Vc)|apply (H0 C Vn Vc)]; assumption.
  - intros x Hx. rewrite crun_sub_eq. specialize (H C Vn Vc H0 H1 H2 x Hx).
    destruct (ceval env docgen p x) as [r [s1 k1]]. destruct H as [Hx' Hr].
    apply run_sub_body_pres with (R := R); [exact (proj2 (proj2 HJ))|exact Hx'|exact Hr].
Qed.
End Every.

(* With a request ceval_pres_all is used at the revision and the items of the state at hand, with C := name_ok Vn Vc and
   nothing asked of results; without one nothing is collected (Lemmas/CompInert.v). *)
Section Names.
Variable env : bytes -> option bytes.
Variable docgen : bool.

Lemma ceval_visible p Vn Vc : incl (vis_names p) Vn -> incl (vis_cmds p) Vc -> vgood Vn Vc (ceval env docgen p).
Proof.
  intros Hn Hc [s [c|]] Hk; cbn [snd] in *.
  - assert (Hx : hinv (cs_rev c) (items s) (name_ok Vn Vc) (s, Some c))
      by (split; [split; reflexivity|apply kall_comps, Hk]).
    pose proof (proj1 (ceval_pres_all _ _ _ _ (judges_top _ _) env docgen) p _ Vn Vc (covers_name_ok Vn Vc) Hn Hc _ Hx) as H.
    destruct (ceval env docgen p (s, Some c)) as [r [s' k']]. apply kall_comps. exact (proj2 (proj1 H)).
  - rewrite (proj1 (ceval_inert_all env docgen) p). exact I.
Qed.

Lemma crun_visible o Vn Vc : incl (ovis_names o) Vn -> incl (ovis_cmds o) Vc -> vrgood Vn Vc (crun_sub env docgen o).
Proof.
  intros Hn Hc [s [c|]] Hk; cbn [snd] in *.
  - assert (Hx : hinv (cs_rev c) (items s) (name_ok Vn Vc) (s, Some c))
      by (split; [split; reflexivity|apply kall_comps, Hk]).
    pose proof (proj2 (proj2 (ceval_pres_all _ _ _ _ (judges_top _ _) env docgen)) o _ Vn Vc (covers_name_ok Vn Vc) Hn Hc _ Hx)
      as H.
    destruct (crun_sub env docgen o (s, Some c)) as [r [s' k']]. apply kall_comps. exact (proj2 (proj1 H)).
  - rewrite (proj2 (proj2 (ceval_inert_all env docgen)) o). exact I.
Qed.

Theorem ceval_visible_all :
  (forall p Vn Vc, incl (vis_names p) Vn -> incl (vis_cmds p) Vc -> vgood Vn Vc (ceval env docgen p)) /\
  (forall ps Vn Vc, incl (lvis_names ps) Vn -> incl (lvis_cmds ps) Vc -> Forall (vgood Vn Vc) (cevals env docgen ps)) /\
  (forall o Vn Vc, incl (ovis_names o) Vn -> incl (ovis_cmds o) Vc -> vrgood Vn Vc (crun_sub env docgen o)).
Proof.
  split; [exact ceval_visible|]. split; [|exact crun_visible].
  induction ps as [|q t IH]; intros Vn Vc Hn Hc; cbn [lvis_names lvis_cmds] in *; [constructor|].
  destruct (incl_app_inv _ _ Hn), (incl_app_inv _ _ Hc). rewrite cevals_cons. constructor; auto using ceval_visible.
Qed.
End Names.

Corollary run_hints_name_visible_items env docgen o s rv np :
  kall (ovis_names o) (ovis_cmds o) (snd (snd (crun_sub env docgen o (s, Some (mkCst [] rv np))))).
Proof.
  apply (proj2 (proj2 (ceval_visible_all env docgen)) o _ _ (incl_refl _) (incl_refl _)). cbn. constructor.
Qed.

Theorem candidates_from_visible_items Vn Vc cs arg po nm px i :
  Forall (name_ok Vn Vc) cs -> In i (fst (complete cs arg po nm px)) ->
  exists c, In c cs /\ name_ok Vn Vc c /\ comp_item arg po px c = Some i.
Proof.
  intros Hk Hi. destruct (complete_sound cs arg po nm px i Hi) as [c [Hc [_ [_ Hci]]]].
  exists c. split; [exact Hc|]. split; [exact (proj1 (Forall_forall _ _) Hk c Hc)|exact Hci].
Qed.

(* both stages of completion together (C14) *)
Corollary level_candidates_from_visible_items env docgen p s rv np arg po nm px i :
  In i (fst (complete (kcomps (snd (snd (ceval env docgen p (s, Some (mkCst [] rv np)))))) arg po nm px)) ->
  exists h, name_ok (vis_names p) (vis_cmds p) h /\ comp_item arg po px h = Some i.
Proof.
  intros Hi.
  pose proof (proj1 (ceval_visible_all env docgen) p _ _ (incl_refl _) (incl_refl _) (s, Some (mkCst [] rv np))) as Hk.
  cbn [snd] in Hk. specialize (Hk (Forall_nil _)). apply kall_comps in Hk.
  destruct (candidates_from_visible_items _ _ _ arg po nm px i Hk Hi) as [h [_ [Hn Hc]]].
  exists h. split; assumption.
Qed.
