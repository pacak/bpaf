(* ConvRespell.v -- C02 on conventional trees: equivalent spellings are read alike.
   `--name value`, `--name=value`, `-n value`, `-n=value`, `-nvalue`, and `-abc` against `-a -b -c`
   differ, after tokenisation, only in the `adjacent` bit and the recorded text of the option tokens
   and in whether a VALUE is a Word or an ArgWord.  The grammar looks at none of these: related
   token lists get the same verdict (same value when accepted), level by level through the tree. *)
From BpafModel Require Import Conv.
From BpafLemmas Require Import Tac ConvLaws ConvRefine ConvTree ConvTreeSound ConvStderr.
Import ListNotations.

(* the same token up to the adjacent bit and the recorded text *)
Definition tsim (a b : arg) : Prop :=
  match a, b with
  | Short c _ _, Short c' _ _ => c = c'
  | Long l _ _, Long l' _ _ => l = l'
  | Word w, Word w' => w = w'
  | ArgWord w, ArgWord w' => w = w'
  | PosWord w, PosWord w' => w = w'
  | _, _ => False
  end.

Lemma tsim_match nm a b : tsim a b -> matches_arg nm false a = matches_arg nm false b.
Proof. destruct a, b; cbn; try contradiction; intros ->; reflexivity. Qed.

Lemma tsim_key a b : tsim a b -> is_key a = is_key b.
Proof. destruct a, b; cbn; try contradiction; reflexivity. Qed.

Lemma tsim_help a b : tsim a b -> is_help a = is_help b.
Proof. intros H. unfold is_help. apply tsim_match. exact H. Qed.

Lemma tsim_owner its a b : tsim a b -> forall k, find_owner its a k = find_owner its b k.
Proof.
  intros H. induction its as [|x t IH]; intros k; cbn [find_owner]; [reflexivity|].
  rewrite (tsim_match (item_named x) a b H). destruct (matches_arg (item_named x) false b); [reflexivity|apply IH].
Qed.

(* two option tokens that the level reads alike: the same name, or two names of the same item *)
Definition ksim (items : list citem) (a b : arg) : Prop :=
  is_key a = true /\ is_key b = true /\ is_help a = is_help b /\
  find_owner items a 0 = find_owner items b 0 /\ (find_owner items a 0 = None -> tsim a b).

Lemma tsim_ksim items a b : is_key a = true -> tsim a b -> ksim items a b.
Proof.
  intros K H. split; [exact K|]. split; [rewrite <- (tsim_key a b H); exact K|]. split; [apply tsim_help; exact H|].
  split; [apply tsim_owner; exact H|intros _; exact H].
Qed.

(* related token lists, level by level *)
Inductive Resp : level -> list (arg * bool) -> list (arg * bool) -> Prop :=
| RNil l : Resp l [] []
| RMark l a r r' : Resp l r r' -> Resp l ((a, true) :: r) ((a, true) :: r')
| RKeyVal items tail k k' b b' w it j r r' :
    ksim items k k' -> find_owner items k 0 = Some (j, it) -> is_argument it = true ->
    is_value b = Some w -> is_value b' = Some w ->
    Resp (Level items tail) r r' ->
    Resp (Level items tail) ((k, false) :: (b, false) :: r) ((k', false) :: (b', false) :: r')
| RArgNoVal items tail k k' it j r r' :
    ksim items k k' -> find_owner items k 0 = Some (j, it) -> is_argument it = true ->
    novalue r -> novalue r' ->
    Resp (Level items tail) ((k, false) :: r) ((k', false) :: r')
| RFlagKey items tail a a' r r' :
    ksim items a a' ->
    (forall j it, find_owner items a 0 = Some (j, it) -> is_argument it = false) ->
    Resp (Level items tail) r r' ->
    Resp (Level items tail) ((a, false) :: r) ((a', false) :: r')
| RTok items tail a a' r r' :
    tsim a a' -> is_key a = false ->
    (forall cs w, tail = TCmds cs -> a = Word w -> find_cmd cs w = None) ->
    Resp (Level items tail) r r' ->
    Resp (Level items tail) ((a, false) :: r) ((a', false) :: r')
| RCmd items cs w sub r r' :
    find_cmd cs w = Some sub -> Resp sub r r' ->
    Resp (Level items (TCmds cs)) ((Word w, false) :: r) ((Word w, false) :: r').

(* scan results up to "not accepted" *)
Definition rsim (r r' : scan_result) : Prop :=
  match r, r' with
  | ScDone a, ScDone a' => a = a'
  | ScCmd a sub rest, ScCmd a' sub' rest' => a = a' /\ sub = sub' /\ Resp sub rest rest'
  | (ScReject | ScUnspec), (ScReject | ScUnspec) => True
  | _, _ => False
  end.

Lemma rsim_cons ro oo wo r r' : rsim r r' -> rsim (att_cons ro oo wo r) (att_cons ro oo wo r').
Proof.
  destruct r as [a|a sub rest| |], r' as [a'|a' sub' rest'| |]; cbn; try contradiction; try exact (fun x => x).
  - intros ->. reflexivity.
  - intros (-> & -> & H). auto.
Qed.

Lemma rsim_rej (b b' : bool) : rsim (if b then ScUnspec else ScReject) (if b' then ScUnspec else ScReject).
Proof. destruct b, b'; exact I. Qed.

Lemma value_head_val b w r : is_value b = Some w -> value_head ((b, false) :: r) = Some (w, r).
Proof. destruct b; cbn; intros H; try discriminate; inversion H; reflexivity. Qed.

Lemma value_head_none r : novalue r -> value_head r = None.
Proof.
  destruct r as [|[b m] r']; [reflexivity|]. destruct m; [destruct b; reflexivity|].
  cbn. destruct b; cbn; intros H; try discriminate; reflexivity.
Qed.

Lemma tsim_nonkey a b : tsim a b -> is_key a = false -> b = a.
Proof. destruct a, b; cbn; try contradiction; try discriminate; intros -> _; reflexivity. Qed.

Lemma scan_resp l ts ts' : Resp l ts ts' -> forall items tail anc, l = Level items tail ->
  rsim (scan items anc tail ts) (scan items anc tail ts').
Proof.
  induction 1 as [l|l a r r' _ IH|items tail k k' b b' w it j r r' Hs Fo Ia Vb Vb' _ IH
                 |items tail k k' it j r r' Hs Fo Ia Nv Nv'|items tail a a' r r' Hs Hna _ IH
                 |items tail a a' r r' Hs Ka Hnc _ IH|items cs w sub r r' Fc R' _];
    intros items1 tail1 anc E; try (injection E as <- <-).
  - reflexivity.
  - cbn [scan]. apply rsim_cons, IH, E.
  - (* an argument and its value *)
    destruct Hs as (Kk & Kk' & Hh & Ho & _).
    rewrite (scan_key items anc tail k _ Kk), (scan_key items anc tail k' _ Kk'). unfold key_step.
    rewrite <- Hh, <- Ho, Fo, Ia, (value_head_val b w r Vb), (value_head_val b' w r' Vb').
    destruct (is_help k); [exact I|]. apply rsim_cons, IH. reflexivity.
  - (* an argument's name without a value: rejected (or left unspecified) on both sides *)
    destruct Hs as (Kk & Kk' & Hh & Ho & _).
    rewrite (scan_key items anc tail k _ Kk), (scan_key items anc tail k' _ Kk'). unfold key_step.
    rewrite <- Hh, <- Ho, Fo, Ia, (value_head_none r Nv), (value_head_none r' Nv').
    destruct (is_help k); [exact I|apply rsim_rej].
  - (* a flag's name, or a name nobody of this level owns *)
    destruct Hs as (Ka & Ka' & Hh & Ho & Hu).
    rewrite (scan_key items anc tail a _ Ka), (scan_key items anc tail a' _ Ka'). unfold key_step.
    rewrite <- Hh, <- Ho. destruct (is_help a); [exact I|].
    destruct (find_owner items a 0) as [[j it]|] eqn:Fo.
    + rewrite (Hna j it eq_refl). apply rsim_cons, IH. reflexivity.
    + rewrite <- (tsim_owner anc _ _ (Hu eq_refl) 0). destruct (find_owner anc a 0); [exact I|apply rsim_rej].
  - (* a word *)
    rewrite (tsim_nonkey a a' Hs Ka). destruct a as [c adj os|nm adj os|x|x|x]; try discriminate Ka; cbn [scan].
    + apply rsim_rej.
    + destruct (dashy x); [exact I|]. destruct tail as [|ps|cs].
      * apply rsim_rej.
      * apply rsim_cons, IH. reflexivity.
      * rewrite (Hnc cs x eq_refl eq_refl). apply rsim_rej.
    + destruct tail as [|ps|cs]; try apply rsim_rej. apply rsim_cons, IH. reflexivity.
  - (* the command word *)
    cbn [scan]. destruct (dashy w); [exact I|]. rewrite Fc. cbn. auto.
Qed.

Definition vsimv (a b : verdict) : Prop :=
  match a, b with
  | Accept v, Accept v' => v = v'
  | (Reject | Unspecified), (Reject | Unspecified) => True
  | _, _ => False
  end.

Lemma denote_resp f : forall l anc ts ts', Resp l ts ts' -> vsimv (denote_level f l anc ts) (denote_level f l anc ts').
Proof.
  induction f as [|f IH]; intros [items tail] anc ts ts' R; [exact I|]. cbn [denote_level].
  pose proof (scan_resp _ ts ts' R items tail anc eq_refl) as S.
  destruct (scan items anc tail ts) as [a|a sub rest| |], (scan items anc tail ts') as [a'|a' sub' rest'| |]; cbn in S; try contradiction.
  - subst a'. destruct (items_values items 0 (at_occ a)); [|exact I].
    destruct tail as [|ps|cs]; [destruct (at_words a); [reflexivity|exact I]|destruct (pos_values ps (at_words a)); [reflexivity|exact I]|exact I].
  - destruct S as (-> & -> & Rs). pose proof (IH sub' (anc ++ items) rest rest' Rs) as Hv.
    destruct (denote_level f sub' (anc ++ items) rest) as [sv| |], (denote_level f sub' (anc ++ items) rest') as [sv'| |]; cbn in Hv; try contradiction; try exact I.
    subst sv'. destruct (items_values items 0 (at_occ a')); [reflexivity|exact I].
  - exact I.
  - exact I.
  - exact I.
  - exact I.
Qed.

(* the fuel of denote_level only has to exceed the number of tokens *)
Lemma denote_level_fuel f : forall f' l anc ts, length ts < f -> length ts < f' ->
  denote_level f l anc ts = denote_level f' l anc ts.
Proof.
  induction f as [|f IH]; intros f' [items tail] anc ts H H'; [lia|]. destruct f' as [|f']; [lia|]. cbn [denote_level].
  destruct (scan items anc tail ts) as [a|a sub rest| |] eqn:Sc; try reflexivity.
  destruct (scan_cmd_decomp items anc tail ts 0 a sub rest Sc) as (pre & w & cs & -> & _).
  rewrite app_length in H, H'. cbn [length] in H, H'.
  rewrite (IH f' sub (anc ++ items) rest); [reflexivity|lia|lia].
Qed.

(* C02 on conventional trees: vectors whose tokens differ only by spelling are judged alike *)
Theorem respell_verdict l argv1 argv2 :
  let st := short_tables (compile_options l) in
  let t1 := tokenize (fst st) (snd st) argv1 in
  let t2 := tokenize (fst st) (snd st) argv2 in
  t_ambiguity t1 = None -> t_ambiguity t2 = None ->
  Resp l (mark_tokens t1) (mark_tokens t2) ->
  vsimv (denote l argv1) (denote l argv2).
Proof.
  cbn zeta. unfold denote. destruct (short_tables (compile_options l)) as [sf sa]. cbn [fst snd].
  intros A1 A2 R. rewrite A1, A2.
  set (t1 := tokenize sf sa argv1) in *. set (t2 := tokenize sf sa argv2) in *.
  assert (L1 : length (mark_tokens t1) = length (t_items t1)) by (unfold mark_tokens; apply mark_go_length).
  assert (L2 : length (mark_tokens t2) = length (t_items t2)) by (unfold mark_tokens; apply mark_go_length).
  set (f := S (length (t_items t1) + length (t_items t2))).
  rewrite (denote_level_fuel _ f l [] (mark_tokens t1)) by (unfold f; lia).
  rewrite (denote_level_fuel _ f l [] (mark_tokens t2)) by (unfold f; lia).
  apply denote_resp. exact R.
Qed.

(* ... and parsed alike: the same value, or an error message on stderr for both *)
Theorem respell_outcome feat env l argv1 argv2 :
  tree_ok l -> plain_cmds l = true ->
  let st := short_tables (compile_options l) in
  let t1 := tokenize (fst st) (snd st) argv1 in
  let t2 := tokenize (fst st) (snd st) argv2 in
  t_ambiguity t1 = None -> t_ambiguity t2 = None ->
  Resp l (mark_tokens t1) (mark_tokens t2) ->
  denote l argv1 <> Unspecified -> denote l argv2 <> Unspecified ->
  (exists v, run_inner feat env (compile_options l) None argv1 = OutOk v /\
             run_inner feat env (compile_options l) None argv2 = OutOk v) \/
  (exists m1 m2, run_inner feat env (compile_options l) None argv1 = OutStderr m1 /\
                 run_inner feat env (compile_options l) None argv2 = OutStderr m2).
Proof.
  intros Hok Hpl st t1 t2 A1 A2 R S1 S2.
  pose proof (respell_verdict l argv1 argv2 A1 A2 R) as V.
  destruct (denote l argv1) as [v| |] eqn:D1; [|clear S1|contradiction S1; reflexivity];
    destruct (denote l argv2) as [v'| |] eqn:D2; cbn in V; try contradiction; try (contradiction S2; reflexivity).
  - subst v'. left. exists v. split; apply denote_accept_tree; auto.
  - right. destruct (denote_reject_stderr_tree feat env l argv1 Hok Hpl D1) as [m1 H1].
    destruct (denote_reject_stderr_tree feat env l argv2 Hok Hpl D2) as [m2 H2]. eauto.
Qed.
Print Assumptions respell_outcome.
