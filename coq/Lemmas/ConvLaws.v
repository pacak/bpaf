(* ConvLaws.v -- the conventional fragment (C01).  Conv.scan read case by case, as an induction
   principle (scan_cases); a vector the grammar specifies holds no help request and no option of an
   enclosing level (scan_spec); a property of parsers that passes through construct!, the alternative
   and the command holds of every compiled level (compile_closed); a key that no item of the tree owns
   and that is no command name is never swallowed. *)
From Coq Require Import Lia.
From BpafModel Require Import Conv.
From BpafLemmas Require Import Reach Ledger OkReach.
Import ListNotations.

Lemma not_key_no_match nm sh a : is_key a = false -> matches_arg nm sh a = false.
Proof. destruct a; cbn; congruence. Qed.

Lemma match_is_key nm sh a : matches_arg nm sh a = true -> is_key a = true.
Proof. destruct a; cbn; congruence. Qed.

Lemma find_owner_spec its a : forall k0 k it,
  find_owner its a k0 = Some (k, it) ->
  k0 <= k /\ nth_error its (k - k0) = Some it /\ matches_arg (item_named it) false a = true.
Proof.
  induction its as [|x t IH]; intros k0 k it H; cbn in H; [discriminate|].
  destruct (matches_arg (item_named x) false a) eqn:M.
  - inversion H; subst. rewrite Nat.sub_diag. auto.
  - apply IH in H. destruct H as (H1 & H2 & H3). split; [lia|]. split; [|exact H3].
    replace (k - k0) with (S (k - S k0)) by lia. exact H2.
Qed.

Lemma find_owner_in its a k it : find_owner its a 0 = Some (k, it) ->
  nth_error its k = Some it /\ In it its /\ matches_arg (item_named it) false a = true.
Proof.
  intros H. destruct (find_owner_spec its a 0 k it H) as (_ & Hn & M). rewrite Nat.sub_0_r in Hn.
  split; [exact Hn|]. split; [eapply nth_error_In; exact Hn|exact M].
Qed.

Lemma find_owner_first its a : forall k0 p it,
  nth_error its p = Some it -> matches_arg (item_named it) false a = true ->
  exists k it', find_owner its a k0 = Some (k, it') /\ k <= k0 + p.
Proof.
  induction its as [|x t IH]; intros k0 p it Hn M; [destruct p; discriminate|].
  cbn [find_owner]. destruct (matches_arg (item_named x) false a) eqn:Mx.
  - exists k0, x. split; [reflexivity|lia].
  - destruct p as [|p]; cbn in Hn.
    + inversion Hn; subst. congruence.
    + destruct (IH (S k0) p it Hn M) as (k & it' & E & Hk). exists k, it'. split; [exact E|lia].
Qed.

Lemma find_owner_none its a : forall k0, find_owner its a k0 = None ->
  forall it, In it its -> matches_arg (item_named it) false a = false.
Proof.
  induction its as [|x t IH]; intros k0 H it Hin; [contradiction|]. cbn [find_owner] in H.
  destruct (matches_arg (item_named x) false a) eqn:M; [discriminate|].
  destruct Hin as [<-|Hin]; [exact M|]. eapply IH; eauto.
Qed.

Definition value_head (rest : list (arg * bool)) : option (bytes * list (arg * bool)) :=
  match rest with
  | (ArgWord w, false) :: rest' | (Word w, false) :: rest' => Some (w, rest')
  | _ => None
  end.

Lemma value_head_some rest w rest' : value_head rest = Some (w, rest') ->
  exists b, rest = (b, false) :: rest' /\ (b = Word w \/ b = ArgWord w).
Proof.
  destruct rest as [|[b m] r]; [discriminate|]. destruct b, m; cbn; try discriminate; intros H; inversion H; subst; eauto.
Qed.

Section Scan.
Variables (items anc : list citem) (tail : ctail).

Definition key_step (x : arg) (rest : list (arg * bool)) : scan_result :=
  if is_help x then ScUnspec else
  match find_owner items x 0 with
  | Some (k, it) =>
    if is_argument it then
      match value_head rest with
      | Some (w, rest') => att_cons [RKey k; RVal k] [(k, Some w)] [] (scan items anc tail rest')
      | None => if unspec_later items anc tail false ((x, false) :: rest) then ScUnspec else ScReject
      end
    else att_cons [RKey k] [(k, None)] [] (scan items anc tail rest)
  | None =>
    match find_owner anc x 0 with
    | Some _ => ScUnspec
    | None => if unspec_later items anc tail false ((x, false) :: rest) then ScUnspec else ScReject
    end
  end.

Lemma scan_key x rest : is_key x = true ->
  scan items anc tail ((x, false) :: rest) = key_step x rest.
Proof.
  destruct x; cbn [is_key]; try discriminate; intros _; unfold key_step; cbn [scan];
    (destruct (is_help _); [reflexivity|]); (destruct (find_owner items _ 0) as [[k it]|]; [|reflexivity]);
    (destruct (is_argument it); [|reflexivity]);
    (destruct rest as [|[b m] r]; [reflexivity|]); destruct b; destruct m; reflexivity.
Qed.

Inductive rejects (x : arg) (rest : list (arg * bool)) : Prop :=
| Rj_unowned : is_key x = true -> find_owner items x 0 = None -> rejects x rest
| Rj_novalue k it : is_key x = true -> find_owner items x 0 = Some (k, it) -> is_argument it = true ->
    value_head rest = None -> rejects x rest
| Rj_word w : x = Word w ->
    match tail with TNone => True | TPos _ => False | TCmds cs => find_cmd cs w = None end -> rejects x rest
| Rj_posword w : x = PosWord w -> (forall ps, tail <> TPos ps) -> rejects x rest
| Rj_argword w : x = ArgWord w -> rejects x rest.

Definition rej (ts : list (arg * bool)) : scan_result :=
  if unspec_later items anc tail false ts then ScUnspec else ScReject.

End Scan.

Lemma scan_cases items anc tail (P : list (arg * bool) -> scan_result -> Prop) :
  P [] (ScDone (mkAttr [] [] [])) ->
  (forall x rest, P rest (scan items anc tail rest) ->
     P ((x, true) :: rest) (att_cons [RMark] [] [] (scan items anc tail rest))) ->
  (forall x k it rest, is_key x = true -> is_help x = false ->
     find_owner items x 0 = Some (k, it) -> is_argument it = false ->
     P rest (scan items anc tail rest) ->
     P ((x, false) :: rest) (att_cons [RKey k] [(k, None)] [] (scan items anc tail rest))) ->
  (forall x k it b w rest, is_key x = true -> is_help x = false ->
     find_owner items x 0 = Some (k, it) -> is_argument it = true -> b = Word w \/ b = ArgWord w ->
     P rest (scan items anc tail rest) ->
     P ((x, false) :: (b, false) :: rest) (att_cons [RKey k; RVal k] [(k, Some w)] [] (scan items anc tail rest))) ->
  (forall x w ps rest, tail = TPos ps -> x = Word w /\ dashy w = false \/ x = PosWord w ->
     P rest (scan items anc tail rest) ->
     P ((x, false) :: rest) (att_cons [RWord] [] [w] (scan items anc tail rest))) ->
  (forall w cs sub rest, tail = TCmds cs -> find_cmd cs w = Some sub ->
     P ((Word w, false) :: rest) (ScCmd (mkAttr [] [] []) sub rest)) ->
  (forall x rest, rejects items tail x rest -> P ((x, false) :: rest) (rej items anc tail ((x, false) :: rest))) ->
  (forall ts, P ts ScUnspec) ->
  forall ts, P ts (scan items anc tail ts).
Proof.
  intros Hnil Hmark Hflag Harg Hword Hcmd Hrej Hun ts.
  remember (length ts) as n eqn:En. revert ts En.
  induction n as [n IH] using lt_wf_ind. intros [|[x m] rest] En; [exact Hnil|]. cbn [length] in En.
  assert (IH1 : P rest (scan items anc tail rest)) by (apply (IH (length rest)); [lia|reflexivity]).
  destruct m; [exact (Hmark x rest IH1)|].
  destruct (is_key x) eqn:Kx.
  - rewrite (scan_key items anc tail x rest Kx). unfold key_step.
    destruct (is_help x) eqn:Hx; [apply Hun|].
    destruct (find_owner items x 0) as [[k it]|] eqn:Fo.
    + destruct (is_argument it) eqn:Ia; [|exact (Hflag x k it rest Kx Hx Fo Ia IH1)].
      destruct (value_head rest) as [[w rest']|] eqn:Vh; [|apply Hrej; eapply Rj_novalue; eauto].
      destruct (value_head_some rest w rest' Vh) as (b & -> & Hb).
      apply (Harg x k it b w rest' Kx Hx Fo Ia Hb). apply (IH (length rest')); [cbn in En; lia|reflexivity].
    + destruct (find_owner anc x 0); [apply Hun|]. apply Hrej. apply Rj_unowned; assumption.
  - destruct x as [c adj os|nm adj os|w|w|w]; try discriminate; cbn [scan].
    + apply Hrej. eapply Rj_argword; reflexivity.
    + destruct (dashy w) eqn:Dw; [apply Hun|]. destruct tail as [|ps|cs] eqn:Et.
      * apply Hrej. eapply Rj_word; [reflexivity|exact I].
      * apply (Hword (Word w) w ps rest eq_refl); [left; auto|exact IH1].
      * destruct (find_cmd cs w) as [sub|] eqn:Fc; [exact (Hcmd w cs sub rest eq_refl Fc)|].
        apply Hrej. eapply Rj_word; [reflexivity|exact Fc].
    + destruct tail as [|ps|cs] eqn:Et.
      * apply Hrej. eapply Rj_posword; [reflexivity|discriminate].
      * apply (Hword (PosWord w) w ps rest eq_refl); [right; reflexivity|exact IH1].
      * apply Hrej. eapply Rj_posword; [reflexivity|discriminate].
Qed.

(* no token carries a name of an item of A and a name of an item of B *)
Definition apart (A B : list citem) : Prop :=
  forall it it' a, In it A -> In it' B ->
    matches_arg (item_named it) false a = true -> matches_arg (item_named it') false a = true -> False.

Section Spec.
Variables (items anc : list citem) (tail : ctail).

Definition spec_tok (x : arg) : Prop :=
  is_help x = false /\ forall it, In it anc -> matches_arg (item_named it) false x = false.
Definition tfree (ts : list (arg * bool)) : Prop := forall b, In (b, false) ts -> spec_tok b.

Lemma tfree_app a b : tfree a -> tfree b -> tfree (a ++ b).
Proof. intros Ha Hb x Hin. apply in_app_or in Hin. destruct Hin; [apply Ha|apply Hb]; assumption. Qed.

Lemma tfree_marked a : tfree [(a, true)].
Proof. intros b [E|[]]. discriminate. Qed.

Lemma tfree_one a : spec_tok a -> tfree [(a, false)].
Proof. intros H b [E|[]]. inversion E; subst. exact H. Qed.

Lemma nonkey_spec a : is_key a = false -> spec_tok a.
Proof. intros K. split; [|intros it _]; apply not_key_no_match; exact K. Qed.

Lemma unspec_later_free : forall ts pc, unspec_later items anc tail pc ts = false -> tfree ts.
Proof.
  induction ts as [|[a m] r IH]; intros pc H b Hin; [contradiction|]. cbn [unspec_later] in H.
  destruct m; [destruct Hin as [E|Hin]; [discriminate|eapply IH; eauto]|].
  apply orb_false_elim in H. destruct H as [H Hr]. apply orb_false_elim in H. destruct H as [H _].
  apply orb_false_elim in H. destruct H as [H Ho]. apply orb_false_elim in H. destruct H as [Hh _].
  destruct Hin as [E|Hin]; [|eapply IH; eauto]. inversion E; subst b.
  destruct (is_key a) eqn:K; [|apply nonkey_spec; exact K]. cbn in Hh. split; [exact Hh|].
  unfold owned_by in Ho. rewrite K in Ho. cbn in Ho.
  destruct (find_owner anc a 0) eqn:F; [discriminate|]. eapply find_owner_none; eauto.
Qed.

Hypothesis Hcross : apart items anc.

Lemma owned_spec a k it : is_help a = false -> find_owner items a 0 = Some (k, it) -> spec_tok a.
Proof.
  intros Hh Fo. split; [exact Hh|]. intros it' Hit'. destruct (find_owner_in items a k it Fo) as (_ & Hit & M).
  destruct (matches_arg (item_named it') false a) eqn:M'; [|reflexivity].
  exfalso. exact (Hcross it it' a Hit Hit' M M').
Qed.

Definition scan_post (ts : list (arg * bool)) (r : scan_result) : Prop :=
  match r with
  | ScUnspec => True
  | ScDone _ | ScReject => tfree ts
  | ScCmd _ sub rest => exists pre w, ts = pre ++ (Word w, false) :: rest /\ tfree pre
  end.

Lemma scan_post_cons hd ts ro oo wo res : tfree hd -> scan_post ts res -> scan_post (hd ++ ts) (att_cons ro oo wo res).
Proof.
  intros Hh Hp. destruct res as [a|a sub rest| |]; cbn [att_cons scan_post] in *.
  - apply tfree_app; assumption.
  - destruct Hp as (pre & w & -> & Hf). exists (hd ++ pre), w. split; [rewrite app_assoc; reflexivity|apply tfree_app; assumption].
  - apply tfree_app; assumption.
  - exact I.
Qed.

Lemma scan_spec ts : scan_post ts (scan items anc tail ts).
Proof.
  apply scan_cases; clear ts.
  - intros b [].
  - intros x rest IH. apply (scan_post_cons [(x, true)] rest); [apply tfree_marked|exact IH].
  - intros x k it rest _ Hh Fo _ IH. apply (scan_post_cons [(x, false)] rest); [|exact IH].
    apply tfree_one. eapply owned_spec; eauto.
  - intros x k it b w rest _ Hh Fo _ Hb IH. apply (scan_post_cons [(x, false); (b, false)] rest); [|exact IH].
    apply (tfree_app [(x, false)] [(b, false)]); apply tfree_one; [eapply owned_spec; eauto|].
    apply nonkey_spec. destruct Hb as [-> | ->]; reflexivity.
  - intros x w ps rest _ Hx IH. apply (scan_post_cons [(x, false)] rest); [|exact IH].
    apply tfree_one, nonkey_spec. destruct Hx as [[-> _]| ->]; reflexivity.
  - intros w cs sub rest _ _. exists [], w. split; [reflexivity|intros b []].
  - intros x rest _. unfold rej. destruct (unspec_later items anc tail false ((x, false) :: rest)) eqn:E; cbn; [exact I|].
    eapply unspec_later_free; exact E.
  - intros ts. exact I.
Qed.
End Spec.

Fixpoint all_cmd_names (l : level) : list bytes :=
  match l with
  | Level _ tail => match tail with TCmds cs => all_cmd_names_cs cs | _ => [] end
  end
with all_cmd_names_cs (cs : clist) : list bytes :=
  match cs with
  | CNil => []
  | CCons name aliases sub rest => (name :: aliases) ++ all_cmd_names sub ++ all_cmd_names_cs rest
  end.

Scheme level_mut := Induction for level Sort Prop
  with ctail_mut := Induction for ctail Sort Prop
  with clist_mut := Induction for clist Sort Prop.

Definition tail_parsers (t : ctail) : list parser :=
  match t with
  | TNone => []
  | TPos ps => map compile_pos ps
  | TCmds cs => match compile_cmds cs with [] => [] | c :: more => [fold_left POr more c] end
  end.

Lemma compile_level items tail :
  compile (Level items tail) = PCon (plist_of (map compile_item items ++ tail_parsers tail)).
Proof. destruct tail; reflexivity. Qed.

Lemma fold_or_closed (Q : parser -> Prop) : (forall a b, Q a -> Q b -> Q (POr a b)) ->
  forall more c, Q c -> Forall Q more -> Q (fold_left POr more c).
Proof.
  intros Hor. induction more as [|x t IH]; intros c Hc Hm; cbn [fold_left]; [exact Hc|].
  inversion Hm; subst. apply IH; auto.
Qed.

(* To show P of every compiled level that satisfies G (a condition that passes to the sub-levels:
   Gc is its form for a list of commands): show Q of the tail fields -- a positional, a command whose
   body has P, an alternative of two -- and P of a construct! of the items and fields that have Q. *)
Section Compiled.
Variables (G : level -> Prop) (Gc : clist -> Prop) (P Q : parser -> Prop).
Hypothesis G_cmds : forall items cs, G (Level items (TCmds cs)) -> Gc cs.
Hypothesis G_sub : forall name aliases sub rest, Gc (CCons name aliases sub rest) -> G sub /\ Gc rest.
Hypothesis Q_pos : forall p, Q (compile_pos p).
Hypothesis Q_or : forall a b, Q a -> Q b -> Q (POr a b).
Hypothesis Q_cmd : forall name aliases sub rest, Gc (CCons name aliases sub rest) -> P (compile sub) ->
  Q (PCmd name aliases [] None false (Options (compile sub) default_info)).
Hypothesis P_con : forall items tail fs, G (Level items tail) -> Forall Q fs ->
  P (PCon (plist_of (map compile_item items ++ fs))).

Theorem compile_closed : forall l, G l -> P (compile l).
Proof.
  apply (level_mut (fun l => G l -> P (compile l))
                   (fun t => forall items, G (Level items t) -> Forall Q (tail_parsers t))
                   (fun cs => Gc cs -> Forall Q (compile_cmds cs))).
  - intros items tail IHt Hg. rewrite compile_level. apply (P_con items tail); [exact Hg|exact (IHt items Hg)].
  - intros items _. constructor.
  - intros ps items _. apply Forall_forall. intros q Hq. apply in_map_iff in Hq. destruct Hq as (p & <- & _). apply Q_pos.
  - intros cs IH items Hg. specialize (IH (G_cmds items cs Hg)). cbn [tail_parsers].
    destruct (compile_cmds cs) as [|c more]; constructor; [|constructor].
    inversion IH; subst. apply fold_or_closed; assumption.
  - intros _. constructor.
  - intros name aliases sub IHs rest IHr Hg. destruct (G_sub _ _ _ _ Hg) as [Hs Hr]. cbn [compile_cmds].
    constructor; [apply (Q_cmd name aliases sub rest Hg), IHs, Hs|exact (IHr Hr)].
Qed.
End Compiled.

Lemma Forall_plist (R : parser -> Prop) (Rl : plist -> Prop) :
  Rl PNil -> (forall p t, R p -> Rl t -> Rl (PCons p t)) -> forall l, Forall R l -> Rl (plist_of l).
Proof. intros Hn Hc l H. induction H as [|p t Hp _ IH]; cbn [plist_of]; auto. Qed.

Section Unowned.
Variable a : arg.
Hypothesis Hkey : is_key a = true.
Let K (k : ckind) : Prop := accepts k a = false.

Lemma key_not_value n : K (KArgVal n).
Proof. unfold K. destruct a; try discriminate; reflexivity. Qed.
Lemma key_not_pos : K KPos.
Proof. unfold K. destruct a; try discriminate; reflexivity. Qed.

Lemma compile_item_ok it : matches_arg (item_named it) false a = false -> pkinds_ok K (compile_item it).
Proof.
  intros H. destruct it as [n|n p q|n p|n|n p|n mv ty ar]; cbn in *; try exact H.
  destruct ar; cbn; (split; [exact H|apply key_not_value]).
Qed.

Definition not_cmd (names : list bytes) : Prop :=
  forall w, In w names -> beqb (arg_os a) w = false.

Lemma accepts_cmd w : beqb (arg_os a) w = false -> K (KCmd w).
Proof. unfold K. intros H. destruct a; cbn in *; try discriminate; try exact H. destruct adj; [reflexivity|exact H]. Qed.

Definition unowned (its : list citem) (names : list bytes) : Prop :=
  (forall it, In it its -> matches_arg (item_named it) false a = false) /\ not_cmd names.

Lemma unowned_incl its names its' names' :
  incl its' its -> incl names' names -> unowned its names -> unowned its' names'.
Proof. intros Hi Hn [H1 H2]. split; [intros it Hit; apply H1, Hi, Hit|intros w Hw; apply H2, Hn, Hw]. Qed.

Theorem compile_unowned l : unowned (all_items l) (all_cmd_names l) -> pkinds_ok K (compile l).
Proof.
  apply (compile_closed (fun l => unowned (all_items l) (all_cmd_names l))
                        (fun cs => unowned (all_items_cs cs) (all_cmd_names_cs cs)) (pkinds_ok K) (pkinds_ok K)).
  - intros items cs. apply unowned_incl; cbn [all_items all_cmd_names]; [apply incl_appr|]; apply incl_refl.
  - intros name aliases sub rest H. cbn [all_items_cs all_cmd_names_cs] in H.
    split; revert H; apply unowned_incl; auto using incl_appl, incl_appr, incl_refl.
  - intros p. unfold compile_pos. destruct (cp_par p); cbn; apply key_not_pos.
  - intros x y Hx Hy. split; assumption.
  - intros name aliases sub rest [_ Hn] Hs. cbn [pkinds_ok opkinds_ok]. split; [|exact Hs].
    intros w Hw. rewrite app_nil_r in Hw. apply accepts_cmd, Hn. cbn [all_cmd_names_cs]. apply in_or_app. left. exact Hw.
  - intros items tail fs [Hit _] Hfs. cbn [pkinds_ok].
    apply (Forall_plist (pkinds_ok K) (lpkinds_ok K)); [exact I|intros p t Hp Ht; split; assumption|].
    apply Forall_app. split; [|exact Hfs]. apply Forall_forall. intros q Hq. apply in_map_iff in Hq.
    destruct Hq as (it & <- & Hin). apply compile_item_ok, Hit. cbn [all_items]. apply in_or_app. left. exact Hin.
Qed.
End Unowned.

(* C01, the `unknown name' half of Reject: a key (`-x`, `--name`, with or without an attached value)
   that no item of the level tree owns, and whose text is not a command name, is never swallowed:
   the compiled parser cannot return a value on such a vector *)
Theorem unowned_key_never_value feat env l name argv st amb i a :
  initial_state (compile_options l) name argv = (st, amb) ->
  nth_error (items st) i = Some a -> live st i -> is_key a = true ->
  (forall it, In it (all_items l) -> matches_arg (item_named it) false a = false) ->
  (forall w, In w (all_cmd_names l) -> beqb (arg_os a) w = false) ->
  forall v, run_inner feat env (compile_options l) name argv <> OutOk v.
Proof.
  intros Hinit Ha Hl Hk Hit Hn.
  eapply unclaimable_item_run_inner; eauto.
  unfold compile_options. cbn [opkinds_ok].
  apply (compile_unowned a Hk). split; assumption.
Qed.
