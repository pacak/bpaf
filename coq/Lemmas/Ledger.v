(* Ledger.v -- what `reach` implies about the consumption ledger and the ghost log:
   items never change, the ledger keeps its length, consumption is monotone, and the log grows
   by exactly one entry (index, consumer) per item that went from live to Parsed -- each such
   consumer being allowed (K) and accepting the token it claimed. *)
From BpafLemmas Require Import Tac Find Reach.

Definition live (s : state) (i : nat) : Prop := present_at s i = Some true.
Definition dead (s : state) (i : nat) : Prop := present_at s i = Some false.

Lemma filter_len_le {A} (f : A -> bool) l : length (filter f l) <= length l.
Proof. induction l as [|x t IH]; cbn; [lia|]. destruct (f x); cbn; lia. Qed.

Lemma live_dec s i : {live s i} + {~ live s i}.
Proof. unfold live. destruct (present_at s i) as [[|]|]; [left; reflexivity|right; discriminate|right; discriminate]. Qed.

Lemma update_nth_length {A} n (x : A) l : length (update_nth n x l) = length l.
Proof.
  revert n. induction l as [|h t IH]; intros n; [destruct n; reflexivity|].
  destruct n; cbn; [reflexivity|]. rewrite IH. reflexivity.
Qed.

Lemma update_nth_same {A} n (x : A) l : n < length l -> nth_error (update_nth n x l) n = Some x.
Proof.
  revert n. induction l as [|h t IH]; intros n Hn; cbn in *; [lia|].
  destruct n; cbn; [reflexivity|]. apply IH. lia.
Qed.

Lemma update_nth_other {A} n m (x : A) l : m <> n -> nth_error (update_nth n x l) m = nth_error l m.
Proof.
  revert n m. induction l as [|h t IH]; intros n m Hne; cbn.
  - destruct n; reflexivity.
  - destruct n, m; cbn; try reflexivity; try congruence. apply IH. congruence.
Qed.

Lemma nth_update_nth {A} ix (v : A) l i x :
  nth_error (update_nth ix v l) i = Some x -> x = v \/ nth_error l i = Some x.
Proof.
  revert ix i. induction l as [|h t IH]; intros ix i.
  - destruct ix, i; cbn; auto.
  - destruct ix; destruct i; cbn; auto; try apply IH.
    intros H; inversion H; auto.
Qed.

Lemma sremove_eff k ix s st :
  in_scope s ix = true -> ist_at s ix = Some st -> present st = true ->
  sremove k ix s =
  mkState (items s) (update_nth ix Parsed (ist s)) (pred (remaining s)) (Some ix)
          (path s) (sc_start s) (sc_end s) ((ix, k) :: log s).
Proof. intros Hin Hs Hp. unfold sremove. rewrite Hin, Hs, Hp. reflexivity. Qed.

Record ext (K : ckind -> Prop) (s s' : state) (l : list (nat * ckind)) : Prop := mkExt {
  ext_items : items s' = items s;
  ext_len : length (ist s') = length (ist s);
  ext_mono : forall i, live s' i -> live s i;
  ext_log : log s' = l ++ log s;
  ext_nodup : NoDup (map fst l);
  ext_entries : forall i k, In (i, k) l ->
      K k /\ live s i /\ dead s' i /\
      (forall a, nth_error (items s) i = Some a -> accepts k a = true);
  ext_complete : forall i, live s i -> dead s' i -> In i (map fst l) }.

Lemma ext_refl K s : ext K s s [].
Proof.
  constructor; auto; try (constructor; fail).
  - intros i k [].
  - intros i H1 H2. unfold live, dead in *. congruence.
Qed.

Lemma live_dead_excl s i : live s i -> dead s i -> False.
Proof. unfold live, dead. congruence. Qed.

Lemma present_at_sremove k ix s st j :
  in_scope s ix = true -> ist_at s ix = Some st -> present st = true ->
  present_at (sremove k ix s) j = if Nat.eqb j ix then Some false else present_at s j.
Proof.
  intros Hin Hst Hp. rewrite (sremove_eff k ix s st Hin Hst Hp). unfold present_at, ist_at in *. cbn [ist].
  destruct (Nat.eqb_spec j ix) as [->|Hne]; [|rewrite update_nth_other by exact Hne; reflexivity].
  rewrite update_nth_same; [reflexivity|]. apply nth_error_Some. congruence.
Qed.

Lemma ext_frame K s1 s2 s3 l :
  items s3 = items s2 -> length (ist s3) = length (ist s2) ->
  (forall i, present_at s3 i = present_at s2 i) -> log s3 = log s2 ->
  ext K s1 s2 l -> ext K s1 s3 l.
Proof.
  intros Hi Hl Hp Hg [Ei El Em Eg En Ee Ec]. constructor; unfold live, dead in *; try congruence; auto.
  - intros i H. apply Em. rewrite <- Hp. exact H.
  - intros i k Hin. destruct (Ee _ _ Hin) as (? & ? & ? & ?). rewrite Hp. auto.
  - intros i H1 H2. rewrite Hp in H2. auto.
Qed.

Lemma ext_step K s1 s2 s3 l :
  ext K s1 s2 l -> step K s2 s3 -> exists l', ext K s1 s3 l'.
Proof.
  intros E St.
  inversion St as [k ix s st Hk Hin Hst Hp Hacc| | |s a b s' Hs|s ist' Hlen Hpres Hc]; subst.
  - (* remove: one more log entry, for an item that was live until now *)
    destruct E as [Ei El Em Eg En Ee Ec]. exists ((ix, k) :: l).
    pose proof (present_at_sremove k ix s2 st) as Hpa. specialize (fun j => Hpa j Hin Hst Hp).
    assert (Hlive2 : live s2 ix) by (unfold live, present_at; rewrite Hst; cbn; congruence).
    assert (Hpi : dead (sremove k ix s2) ix) by (unfold dead; rewrite Hpa, Nat.eqb_refl; reflexivity).
    assert (Hpo : forall j, j <> ix -> present_at (sremove k ix s2) j = present_at s2 j).
    { intros j Hj. rewrite Hpa. apply Nat.eqb_neq in Hj. rewrite Hj. reflexivity. }
    constructor.
    + rewrite sremove_items. exact Ei.
    + rewrite (sremove_eff k ix s2 st Hin Hst Hp). cbn. rewrite update_nth_length. exact El.
    + intros i Hl. apply Em. unfold live in *. destruct (Nat.eq_dec i ix) as [->|Hne]; [congruence|].
      rewrite Hpo in Hl by exact Hne. exact Hl.
    + rewrite (sremove_eff k ix s2 st Hin Hst Hp). cbn. rewrite Eg. reflexivity.
    + constructor; [|exact En]. intros Hi. apply in_map_iff in Hi.
      destruct Hi as [[i' k'] [Hfst Hin']]. cbn in Hfst. subst i'.
      destruct (Ee _ _ Hin') as (_ & _ & Hd & _). eapply live_dead_excl; eauto.
    + intros i k0 [Heq|Hin'].
      * inv Heq. repeat split; auto. intros a Ha. apply Hacc. rewrite Ei. exact Ha.
      * destruct (Ee _ _ Hin') as (Hk0 & Hl1 & Hd2 & Ha). repeat split; auto.
        unfold dead in *. destruct (Nat.eq_dec i ix) as [->|Hne]; [exact Hpi|].
        rewrite Hpo by exact Hne. exact Hd2.
    + intros i Hl1 Hd3. destruct (Nat.eq_dec i ix) as [->|Hne]; [left; reflexivity|].
      right. apply Ec; [exact Hl1|]. unfold dead in *. rewrite Hpo in Hd3 by exact Hne. exact Hd3.
  - exists l. apply (ext_frame K s1 s2); auto.
  - exists l. apply (ext_frame K s1 s2); auto.
  - apply set_scope_fields in Hs. destruct Hs as (Hi & His & Hlg & _).
    exists l. apply (ext_frame K s1 s2); auto; try congruence. intros i. unfold present_at, ist_at. rewrite His. reflexivity.
  - exists l. apply (ext_frame K s1 s2); auto.
Qed.

Theorem reach_ext K s s' : reach K s s' -> exists l, ext K s s' l.
Proof.
  intros H. induction H as [s|s1 s2 s3 H12 IH St].
  - exists []. apply ext_refl.
  - destruct IH as [l E]. eapply ext_step; eauto.
Qed.

Lemma reach_items K s s' : reach K s s' -> items s' = items s.
Proof. intros H. destruct (reach_ext K s s' H) as [l E]. exact (ext_items _ _ _ _ E). Qed.

Lemma reach_mono K s s' i : reach K s s' -> live s' i -> live s i.
Proof. intros H. apply reach_ext in H. destruct H as [l E]. apply (ext_mono _ _ _ _ E). Qed.
