(* CompAlways.v -- the vocabulary of the completion proofs and what the helper functions of Model/CompEval.v do.
   "Always": with a request on, the answer is always completion output (property C14, first clause).
   `rev` is the output REVISION of the completion protocol throughout (`krev`, `rev_ok`, `cs_rev`), not list reversal.
   `fin f`: the failure is completion output or stdout; `rfin` / `sfin`: a parser's / a command level's result carries
   no other final failure (sfin: and no value).  `xinv rv its`: the request is on with revision rv and the line has the
   items its; `good` / `rgood`: an evaluator / a command level keeps xinv and answers with rfin / sfin.
   `kgrow C k k'`: k' is k after hints satisfying C were appended.
   The hint list of a completion state changes only by `kextend` (every State::push_* is one), `kswap` and
   `kset_nopos`; the ledger side of every operation keeps the items of the line.
   At the end, what single steps do to the hints (C14): a command level that answers, hide(), a command name typed
   last, a command not entered, group_help; then the unfolding equations of `ceval` and the induction over `cparser`. *)
From BpafLemmas Require Import Reach Ledger.
From BpafModel Require Import Message CompEval.

Definition krev (k : option cst) : option nat := option_map cs_rev k.

Definition fin (f : failure) : Prop :=
  match f with FCompletion _ | FStdout _ => True | FStderr _ _ => False end.
Definition rfin (r : eres) : Prop := forall f, r = RErr (MsgParseFailure f) -> fin f.
Definition sfin (r : sres) : Prop :=
  match r with SOk _ => False | SFail f => fin f | SPanic _ | SFuel => True end.

Section Always.
Variable rv : nat.
Variable its : list arg.

Definition xinv (x : xst) : Prop := items (fst x) = its /\ krev (snd x) = Some rv.
Definition good (cev : xevaluator) : Prop :=
  forall x, xinv x -> xinv (snd (cev x)) /\ rfin (fst (cev x)).
Definition rgood (crun : xst -> sres * xst) : Prop :=
  forall x, xinv x -> xinv (snd (crun x)) /\ sfin (fst (crun x)).

Lemma xinv_mk s k : items s = its -> krev k = Some rv -> xinv (s, k).
Proof. intros; split; assumption. Qed.
Lemma xinv_items x : xinv x -> items (fst x) = its.
Proof. intros [H _]; exact H. Qed.
Lemma xinv_krev x : xinv x -> krev (snd x) = Some rv.
Proof. intros [_ H]; exact H. Qed.

End Always.

Lemma ev_reach_items ev s : ev_reach (fun _ => True) ev -> items (snd (ev s)) = items s.
Proof. intros H. exact (reach_items _ _ _ (H s)). Qed.

Lemma take_cmd_any_items names s : items (snd (take_cmd_any names s)) = items s.
Proof. apply (reach_items (fun _ => True)). apply take_cmd_any_reach. intros w _. exact I. Qed.

Lemma run_sub_body_items env inf m s r s1 : items (snd (run_sub_body env inf m s (r, s1))) = items s1.
Proof.
  destruct (run_sub_body_state env inf m s r s1) as [-> | ->]; [reflexivity|].
  exact (reach_items _ _ _ (info_eval_reach (fun _ => True) env inf s1 I I)).
Qed.

Lemma plain_rfin r : plain r -> rfin r.
Proof. intros H f E. destruct (H f E). Qed.

Lemma krev_None k : krev k = None -> k = None.
Proof. destruct k; [discriminate|reflexivity]. Qed.

Lemma krev_kextend k l : krev (kextend k l) = krev k.
Proof. destruct k; reflexivity. Qed.
Lemma krev_kswap k l : krev (fst (kswap k l)) = krev k.
Proof. destruct k; reflexivity. Qed.
Lemma krev_kset_nopos k : krev (kset_nopos k) = krev k.
Proof. destruct k; reflexivity. Qed.

Lemma or_comps_krev q k0 stash sa ka sb kb pick :
  krev k0 = q -> krev ka = q -> krev kb = q -> krev (or_comps k0 stash sa ka sb kb pick) = q.
Proof.
  intros H0 Ha Hb. unfold or_comps. destruct (Nat.compare (depth sa) (depth sb)); rewrite ?krev_kextend; try assumption.
  destruct ka as [ca|], kb as [cb|]; try (rewrite krev_kextend; destruct pick as [[|]|]; assumption).
  destruct (if Nat.eqb _ _ then _ else _) as [keep_a keep_b]. rewrite krev_kextend.
  destruct pick as [[|]|]; [destruct keep_a|destruct keep_b|]; assumption.
Qed.

Lemma Forall_top {A} (l : list A) : Forall (fun _ => True) l.
Proof. apply Forall_forall. intros; exact I. Qed.

Section Hints.
Variable C : comp -> Prop.

Lemma hints_kextend k l : Forall C (kcomps k) -> Forall C l -> Forall C (kcomps (kextend k l)).
Proof. destruct k as [x|]; cbn; [|auto]. intros Hk Hl. apply Forall_app. split; assumption. Qed.
Lemma hints_kswap_fst k l : Forall C l -> Forall C (kcomps (fst (kswap k l))).
Proof. destruct k as [x|]; cbn; auto. Qed.
Lemma hints_kswap_snd k l : Forall C (kcomps k) -> Forall C l -> Forall C (snd (kswap k l)).
Proof. destruct k as [x|]; cbn; auto. Qed.
Lemma hints_kset_nopos k : Forall C (kcomps k) -> Forall C (kcomps (kset_nopos k)).
Proof. destruct k as [x|]; cbn; auto. Qed.

Lemma or_comps_hints k0 stash sa ka sb kb pick :
  Forall C (kcomps k0) -> Forall C stash -> Forall C (kcomps ka) -> Forall C (kcomps kb) ->
  Forall C (kcomps (or_comps k0 stash sa ka sb kb pick)).
Proof.
  intros H0 Hst Ha Hb. unfold or_comps.
  destruct (Nat.compare (depth sa) (depth sb)); try (apply hints_kextend; assumption).
  destruct ka as [ca|], kb as [cb|]; try (apply hints_kextend; [destruct pick as [[|]|]; assumption|exact Hst]).
  destruct (if Nat.eqb _ _ then _ else _) as [keep_a keep_b]. apply hints_kextend.
  - destruct pick as [[|]|]; [destruct keep_a|destruct keep_b|]; try assumption; constructor.
  - apply Forall_app. split; [exact Hst|]. apply Forall_app.
    split; [destruct keep_a|destruct keep_b]; try constructor; assumption.
Qed.
End Hints.

Definition kgrow (C : comp -> Prop) (k k' : option cst) : Prop :=
  krev k' = krev k /\ (Forall C (kcomps k) -> Forall C (kcomps k')).

Section Grow.
Variable C : comp -> Prop.

Lemma kgrow_refl k : kgrow C k k.
Proof. split; auto. Qed.
Lemma kgrow_kpush c k : C c -> kgrow C k (kpush c k).
Proof.
  intros Hc. split; [apply krev_kextend|]. intros Hk. apply (hints_kextend C k [c] Hk). constructor; [exact Hc|constructor].
Qed.
Lemma kgrow_nopos k k' : kgrow C k k' -> kgrow C k (kset_nopos k').
Proof. intros [Hr Hc]. split; [rewrite krev_kset_nopos; exact Hr|]. intros Hk. apply hints_kset_nopos, Hc, Hk. Qed.

Variable env : bytes -> option bytes.
Variable docgen : bool.

Lemma push_flag_grow n s k :
  (forall e sl, shortlong_of n = Some sl -> C (CoFlag e (fst (sl_parts sl)) (snd (sl_parts sl)))) ->
  kgrow C k (push_flag docgen n s k).
Proof.
  intros HC. unfold push_flag. destruct (shortlong_of n) as [sl|]; [|apply kgrow_refl].
  specialize (HC (mkExtra (depth s) None (help_completion docgen (n_help n))) sl eq_refl).
  destruct (sl_parts sl) as [sh lo]. apply kgrow_kpush, HC.
Qed.
Lemma push_argument_grow n mv s k :
  (forall e sl, shortlong_of n = Some sl -> C (CoArgument e (fst (sl_parts sl)) (snd (sl_parts sl)) (chars_of mv))) ->
  kgrow C k (push_argument docgen n mv s k).
Proof.
  intros HC. unfold push_argument. destruct (shortlong_of n) as [sl|]; [|apply kgrow_refl].
  specialize (HC (mkExtra (depth s) None (help_completion docgen (n_help n))) sl eq_refl).
  destruct (sl_parts sl) as [sh lo]. apply kgrow_kpush, HC.
Qed.

Lemma c_eval_flag_spec n p a s k :
  (forall e sl, shortlong_of n = Some sl -> C (CoFlag e (fst (sl_parts sl)) (snd (sl_parts sl)))) ->
  exists k', c_eval_flag env docgen n p a (s, k) = (fst (eval_flag env n p a s), (snd (eval_flag env n p a s), k')) /\
             kgrow C k k'.
Proof.
  intros HC. unfold c_eval_flag. destruct (eval_flag env n p a s) as [r s']. eexists. split; [reflexivity|].
  pose proof (fun s1 => push_flag_grow n s1 k HC) as Hp.
  destruct (take_flag n s); [destruct (touching_last _ k)|destruct (env_first env (n_env n)); [destruct (touching_last _ k)|]];
    auto using kgrow_refl.
Qed.

Lemma c_eval_arg_spec n mv ty adj s k :
  (forall e sl, shortlong_of n = Some sl -> C (CoArgument e (fst (sl_parts sl)) (snd (sl_parts sl)) (chars_of mv))) ->
  (forall e, C (CoMeta e (chars_of mv) true)) ->
  exists k', c_eval_arg env docgen n mv ty adj (s, k) =
             (fst (eval_arg env n mv ty adj s), (snd (eval_arg env n mv ty adj s), k')) /\ kgrow C k k'.
Proof.
  intros HC HM. unfold c_eval_arg. destruct (eval_arg env n mv ty adj s) as [r s']. eexists. split; [reflexivity|].
  pose proof (push_argument_grow n mv s k HC) as Hp.
  destruct (take_arg n adj s); [exact Hp|exact Hp|]. destruct (touching_last _ k); [|apply kgrow_refl].
  apply kgrow_kpush, HM.
Qed.

Lemma c_eval_pos_spec mv ty pos help s k :
  (forall e, C (CoMeta e (chars_of mv) false)) -> (forall e, C (CoValue e [dash; dash] false)) ->
  exists k', c_eval_pos docgen mv ty pos help (s, k) =
             (fst (eval_pos mv ty pos help s), (snd (eval_pos mv ty pos help s), k')) /\ kgrow C k k'.
Proof.
  intros HM HV. unfold c_eval_pos. destruct (eval_pos mv ty pos help s) as [r s']. eexists. split; [reflexivity|].
  assert (Hp : forall s1, kgrow C k (kset_nopos (push_metavar docgen mv help false s1 k)))
    by (intros s1; apply kgrow_nopos, kgrow_kpush, HM).
  destruct (take_positional_word s) as [[[[ix st] w] s1]|].
  - destruct pos, st; try apply kgrow_refl; try (apply kgrow_kpush, HV);
      (destruct (touching_last s1 k && negb (knopos k)); [apply Hp|apply kgrow_refl]).
  - destruct (negb (knopos k)); [apply Hp|apply kgrow_refl].
Qed.

Lemma c_lift_spec ev s k : exists k', c_lift ev (s, k) = (fst (ev s), (snd (ev s), k')) /\ kgrow C k k'.
Proof. exists k. unfold c_lift. cbn [fst snd]. destruct (ev s). split; [reflexivity|apply kgrow_refl]. Qed.
End Grow.


Definition rev_ok (r : nat) : Prop := In r [0; 1; 7; 8; 9].

Lemma check_complete_some s c :
  lit_items s <> [] -> rev_ok (cs_rev c) -> exists t, check_complete s c = Some t.
Proof.
  intros Hl Hr. unfold check_complete. destruct (lit_items s) as [|[cur lit] rest]; [congruence|].
  repeat match goal with |- context [let '(a, b) := ?e in _] => destruct e end.
  unfold rev_ok in Hr. cbn [In] in Hr.
  destruct Hr as [<-|[<-|[<-|[<-|[<-|[]]]]]]; eexists; reflexivity.
Qed.

(* first clause of C14 for one command level: whatever its parser returned, a level left with the hints in hand
   answers with completion output *)
Theorem level_answers_with_completion env inf m s k r s1 c :
  early inf s r = false -> lit_items s1 <> [] -> rev_ok (cs_rev c) ->
  exists t, c_run_sub_body env inf m (s, k) (r, (s1, Some c)) = (SFail (FCompletion t), (s1, Some c)).
Proof.
  intros He Hl Hr. unfold c_run_sub_body. cbn [fst]. destruct (run_sub_body env inf m s (r, s1)) as [pr ps].
  rewrite He. destruct (check_complete_some s1 c Hl Hr) as [t ->]. eexists. reflexivity.
Qed.

Lemma hide_drops_hints cev s c :
  snd (snd (c_hide_body cev (s, Some c))) = None \/ kcomps (snd (snd (c_hide_body cev (s, Some c)))) = cs_comps c.
Proof.
  unfold c_hide_body. cbn [kswap]. destruct (cev _) as [r [s' k']].
  destruct k' as [c'|]; cbn [kswap fst].
  - right. destruct r; try reflexivity. destruct m; reflexivity.
  - left. destruct r; try reflexivity. destruct m; reflexivity.
Qed.

Lemma cmd_name_last docgen name aliases shorts help adjacent m i run s c s1 :
  take_cmd_any ((name :: aliases) ++ map utf8_encode_char shorts) s = (true, s1) ->
  touching_last s1 (Some c) = true ->
  c_cmd_body docgen name aliases shorts help adjacent m i run (s, Some c) =
  (RErr (MsgMissing []),
   (s1, Some (mkCst [CoCommand (mkExtra (depth s1) None (help_completion docgen help)) (chars_of name) (hd_error shorts)]
                    (cs_rev c) (cs_nopos c)))).
Proof. intros Ht Hl. unfold c_cmd_body. rewrite Ht, Hl. reflexivity. Qed.

Lemma cmd_not_entered_hints docgen name aliases shorts help adjacent m i run s k s1 :
  take_cmd_any ((name :: aliases) ++ map utf8_encode_char shorts) s = (false, s1) ->
  snd (snd (c_cmd_body docgen name aliases shorts help adjacent m i run (s, k))) =
  kpush (CoCommand (mkExtra (depth s1) None (help_completion docgen help)) (chars_of name) (hd_error shorts)) k.
Proof. intros Ht. unfold c_cmd_body. rewrite Ht. reflexivity. Qed.

Lemma group_help_titles docgen cev d s c r s' c' :
  cev (s, Some (mkCst [] (cs_rev c) (cs_nopos c))) = (r, (s', Some c')) ->
  c_group_help_body docgen cev d (s, Some c) =
  (r, (s', Some (mkCst (cs_comps c ++ match to_completion docgen d with
                                      | Some g => map (set_group g) (cs_comps c')
                                      | None => cs_comps c'
                                      end) (cs_rev c') (cs_nopos c')))).
Proof. intros E. unfold c_group_help_body. cbn [kswap]. rewrite E. reflexivity. Qed.

Section Interp.
Variable env : bytes -> option bytes.
Variable docgen : bool.
Lemma ceval_XCon_many q1 q2 t x :
  ceval env docgen (XCon (XCons q1 (XCons q2 t))) x = c_con_body false (cevals env docgen (XCons q1 (XCons q2 t))) x.
Proof. reflexivity. Qed.
Lemma cevals_cons q t : cevals env docgen (XCons q t) = ceval env docgen q :: cevals env docgen t.
Proof. reflexivity. Qed.
Lemma crun_sub_eq q inf x :
  crun_sub env docgen (XOptions q inf) x = c_run_sub_body env inf (meta_of (erase q)) x (ceval env docgen q x).
Proof. reflexivity. Qed.
End Interp.

Scheme cparser_mut := Induction for cparser Sort Prop
  with cplist_mut := Induction for cplist Sort Prop
  with coparser_mut := Induction for coparser Sort Prop.
Combined Scheme cparser_cplist_coparser_ind from cparser_mut, cplist_mut, coparser_mut.
