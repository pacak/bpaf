(* Tac.v -- reduction hints and small tactics shared by the proofs, and the unfolding equations of the
   mutual interpreter (all by reflexivity), after which eval / evals / run_sub are never unfolded by simpl/cbn. *)
From Coq Require Export Lia List Bool PeanoNat NArith ZArith.
From BpafModel Require Export Eval.

Global Arguments Nat.ltb : simpl never.
Global Arguments Nat.leb : simpl never.
Global Arguments Nat.eqb : simpl never.
Global Arguments Nat.sub : simpl nomatch.
Global Arguments N.add : simpl never.
Global Arguments N.sub : simpl never.
Global Arguments N.mul : simpl never.
Global Arguments N.eqb : simpl never.
Global Arguments N.ltb : simpl never.
Global Arguments N.leb : simpl never.
Global Arguments N.div : simpl never.
Global Arguments N.modulo : simpl never.

Global Arguments BpafModel.Message.render_message : simpl never.
Global Arguments adj_inner : simpl never.
Global Arguments adjacently_available_from : simpl never.
Global Arguments loop_fuel : simpl never.
Global Arguments set_scope : simpl never.
Global Arguments adjacent_scope : simpl never.
Global Arguments sremove : simpl never.
Global Arguments info_eval : simpl never.
Global Arguments eval_flag : simpl never.

Ltac inv H := inversion H; subst; clear H.

Lemma beqb_eq a b : beqb a b = true -> a = b.
Proof.
  revert b. induction a as [|x t IH]; intros [|y b] E; cbn in E; try discriminate; [reflexivity|].
  apply andb_prop in E. destruct E as [E1 E2]. apply N.eqb_eq in E1. subst. f_equal. apply IH. exact E2.
Qed.

Lemma beqb_refl a : beqb a a = true.
Proof. induction a; cbn; [reflexivity|]. rewrite N.eqb_refl. assumption. Qed.

Section Eq.
Variable env : bytes -> option bytes.

Lemma run_sub_eq q inf s :
  run_sub env (Options q inf) s = run_sub_body env inf (meta_of q) s (eval env q s).
Proof. reflexivity. Qed.

Lemma eval_PFlag n p a s : eval env (PFlag n p a) s = eval_flag env n p a s.
Proof. reflexivity. Qed.
Lemma eval_PArg n mv ty adj s : eval env (PArg n mv ty adj) s = eval_arg env n mv ty adj s.
Proof. reflexivity. Qed.
Lemma eval_PPos mv ty pos help s : eval env (PPos mv ty pos help) s = eval_pos mv ty pos help s.
Proof. reflexivity. Qed.
Lemma eval_PAny mv help check anywhere s :
  eval env (PAny mv help check anywhere) s = eval_any mv help check anywhere s.
Proof. reflexivity. Qed.
Lemma eval_PCmd name aliases shorts help adjacent sub s :
  eval env (PCmd name aliases shorts help adjacent sub) s =
  cmd_body name aliases shorts help adjacent (ometa_of sub) (oinfo_of sub) (run_sub env sub) s.
Proof. reflexivity. Qed.
Lemma eval_PCon_nil s : eval env (PCon PNil) s = (ROk (VTuple []), set_current s None).
Proof. reflexivity. Qed.
Lemma eval_PCon_one q s : eval env (PCon (PCons q PNil)) s = eval env q s.
Proof. reflexivity. Qed.
Lemma eval_PCon_many q1 q2 t s :
  eval env (PCon (PCons q1 (PCons q2 t))) s =
  con_body false (evals env (PCons q1 (PCons q2 t))) s.
Proof. reflexivity. Qed.
Lemma eval_PAdj fields s :
  eval env (PAdj fields) s =
  eval_adjacent (con_body true (evals env fields)) (first_item (con_meta fields)) s.
Proof. reflexivity. Qed.
Lemma eval_POr a b s : eval env (POr a b) s = or_body (eval env a) (eval env b) s.
Proof. reflexivity. Qed.
Lemma eval_POptional q c s : eval env (POptional q c) s = optional_body (eval env q) c s.
Proof. reflexivity. Qed.
Lemma eval_PMany q c s : eval env (PMany q c) s = many_body (eval env q) c s.
Proof. reflexivity. Qed.
Lemma eval_PCollect q c s : eval env (PCollect q c) s = many_body (eval env q) c s.
Proof. reflexivity. Qed.
Lemma eval_PSome q m c s : eval env (PSome q m c) s = some_body (eval env q) m c s.
Proof. reflexivity. Qed.
Lemma eval_PCount q s : eval env (PCount q) s = count_body (eval env q) s.
Proof. reflexivity. Qed.
Lemma eval_PLast q s : eval env (PLast q) s = last_body (eval env q) s.
Proof. reflexivity. Qed.
Lemma eval_PFallback q v sh s : eval env (PFallback q v sh) s = fallback_body (eval env q) v s.
Proof. reflexivity. Qed.
Lemma eval_PFallbackWith q r sh s :
  eval env (PFallbackWith q r sh) s = fallback_with_body (eval env q) r s.
Proof. reflexivity. Qed.
Lemma eval_PGuard q c m s : eval env (PGuard q c m) s = guard_body (eval env q) c m s.
Proof. reflexivity. Qed.
Lemma eval_PParse q f s : eval env (PParse q f) s = parse_body (eval env q) f s.
Proof. reflexivity. Qed.
Lemma eval_PMap q f s : eval env (PMap q f) s = map_body (eval env q) f s.
Proof. reflexivity. Qed.
Lemma eval_PHide q s : eval env (PHide q) s = hide_body (eval env q) s.
Proof. reflexivity. Qed.
Lemma eval_PUsage q d s : eval env (PUsage q d) s = eval env q s.
Proof. reflexivity. Qed.
Lemma eval_PGroupHelp q d s : eval env (PGroupHelp q d) s = eval env q s.
Proof. reflexivity. Qed.
Lemma eval_PPure v s : eval env (PPure v) s = (ROk v, set_current s None).
Proof. reflexivity. Qed.
Lemma eval_PPureWith r s :
  eval env (PPureWith r) s =
  match r with inl v => (ROk v, s) | inr e => (RErr (MsgPureFailed e), s) end.
Proof. reflexivity. Qed.
Lemma eval_PFail m s : eval env (PFail m) s = (RErr (MsgParseFail m), set_current s None).
Proof. reflexivity. Qed.
Lemma eval_PBoxed q s : eval env (PBoxed q) s = eval env q s.
Proof. reflexivity. Qed.

Lemma evals_nil : evals env PNil = [].
Proof. reflexivity. Qed.
Lemma evals_cons q t : evals env (PCons q t) = eval env q :: evals env t.
Proof. reflexivity. Qed.
End Eq.


Lemma adj_inner_S ev orig before f this_arg best :
  adj_inner ev orig before (S f) this_arg best =
    let '(r, ta) := ev this_arg in
    match r with
    | ROk res =>
      match adjacent_scope ta orig with
      | ASPanic => AStop (RPanic P_adj_scope) ta
      | ASSome a b =>
        match set_scope orig a b with
        | Some ta' => adj_inner ev orig before f ta' best
        | None => AStop (RPanic P_set_scope) ta
        end
      | ASNone =>
        match set_scope ta (sc_start orig) (sc_end orig) with
        | Some fin => AReturn res fin
        | None => AStop (RPanic P_set_scope) ta
        end
      end
    | RErr err =>
      if Nat.ltb before (remaining ta) then AStop (RPanic P_sub_overflow) ta
      else
        let consumed := before - remaining ta in
        if Nat.ltb (b_consumed best) consumed then ANext (mkBest consumed ta err) else ANext best
    | RPanic w => AStop (RPanic w) ta
    | RFuel => AStop RFuel ta
    end.
Proof. reflexivity. Qed.

Lemma adj_inner_O ev orig before this_arg best :
  adj_inner ev orig before O this_arg best = AStop RFuel this_arg.
Proof. reflexivity. Qed.

Global Arguments eval : simpl never.
Global Arguments evals : simpl never.
Global Arguments run_sub : simpl never.
