(* MessageLaws.v -- what the rendered error messages carry (Model/Message.v = src/error.rs Message::render):
   the conversion / guard / user text is the tail of the message (C06), messages are not empty unless the
   user supplied an empty text (C11), and the parts of "rendering returns" that do not depend on the evaluator: plain
   messages, suggestions, the summary of missing items (C04; the whole statement is MsgOk.render_message_returns). *)
From BpafModel Require Import Message.
From BpafLemmas Require Import Tac Find Cases.
Import ListNotations.

(* the text of a document, styles and blocks forgotten *)
Definition doc_text (d : doc) : bytes := flat_map (fun t => match t with TText _ s => s | _ => [] end) d.

Lemma doc_text_app a b : doc_text (a ++ b) = doc_text a ++ doc_text b.
Proof. unfold doc_text. apply flat_map_app. Qed.

Lemma doc_text_dwrite d sty s : doc_text (dwrite d sty s) = doc_text d ++ s.
Proof.
  unfold dwrite. destruct (rev d) as [|[sty' s'|b|b] r] eqn:E; try (rewrite doc_text_app; cbn; rewrite app_nil_r; reflexivity).
  destruct (style_eqb sty sty'); [|rewrite doc_text_app; cbn; rewrite app_nil_r; reflexivity].
  assert (Hd : d = rev r ++ [TText sty' s']) by (rewrite <- (rev_involutive d), E; reflexivity).
  cbn [rev]. rewrite Hd, !doc_text_app. cbn. rewrite !app_nil_r, app_assoc. reflexivity.
Qed.
Lemma doc_text_dtok d t : (forall sty s, t <> TText sty s) -> doc_text (dtok d t) = doc_text d.
Proof. intros H. unfold dtok. rewrite doc_text_app. destruct t; [exfalso; eapply H; reflexivity| |]; cbn; apply app_nil_r. Qed.
Lemma doc_text_dchar d sty c : doc_text (dchar d sty c) = doc_text d ++ utf8_encode_char c.
Proof. apply doc_text_dwrite. Qed.
Lemma doc_text_tref d f x : (forall e, doc_text (f e) = doc_text e ++ x) -> doc_text (tref d f) = doc_text d ++ x.
Proof.
  intros H. unfold tref. rewrite doc_text_dtok by discriminate. rewrite H. rewrite doc_text_dtok by discriminate. reflexivity.
Qed.

(* C06: a conversion failure's message ends with the conversion error text, a guard failure's with the
   guard's message, a `some`/`fail`/`fallback_with` failure IS the user's text *)
Theorem parse_failed_text s mix t d :
  render_doc (RPlain (MsgParseFailed mix t)) s = Some d -> exists pre, doc_text d = pre ++ m_colon_sp ++ t.
Proof.
  cbn [render_doc]. intros H. inversion H; subst. rewrite !doc_text_dwrite. eexists. rewrite <- app_assoc. reflexivity.
Qed.
Theorem guard_failed_text s mix t d :
  render_doc (RPlain (MsgGuardFailed mix t)) s = Some d -> exists pre, doc_text d = pre ++ t.
Proof. cbn [render_doc]. intros H. inversion H; subst. rewrite doc_text_dwrite. eexists. reflexivity. Qed.
Theorem user_text s t d :
  (render_doc (RPlain (MsgParseSome t)) s = Some d \/ render_doc (RPlain (MsgParseFail t)) s = Some d \/
   render_doc (RPlain (MsgPureFailed t)) s = Some d) -> doc_text d = t.
Proof. cbn [render_doc]. intros [H|[H|H]]; inversion H; subst; rewrite doc_text_dwrite; reflexivity. Qed.

Theorem pre_render_keeps msg s m :
  match msg with MsgUnconsumed _ | MsgMissing _ => False | _ => True end -> pre_render msg s m = Some (RPlain msg).
Proof. destruct msg; cbn; tauto. Qed.

Lemma ne_app_r (a b : bytes) : b <> [] -> a ++ b <> [].
Proof. intros H E. apply app_eq_nil in E. tauto. Qed.
Lemma ne_app_l (a b : bytes) : a <> [] -> a ++ b <> [].
Proof. intros H E. apply app_eq_nil in E. tauto. Qed.
Lemma ne_dwrite d sty c : c <> [] -> doc_text (dwrite d sty c) <> [].
Proof. intros H. rewrite doc_text_dwrite. apply ne_app_r, H. Qed.
Lemma ne_dwrite_l d sty c : doc_text d <> [] -> doc_text (dwrite d sty c) <> [].
Proof. intros H. rewrite doc_text_dwrite. apply ne_app_l, H. Qed.
Lemma ne_dtok d t : doc_text d <> [] -> doc_text (dtok d t) <> [].
Proof. intros H. unfold dtok. rewrite doc_text_app. apply ne_app_l, H. Qed.
Lemma ne_dmetavar d mv : doc_text d <> [] -> doc_text (dmetavar d mv) <> [].
Proof. intros H. unfold dmetavar. destruct (forallb is_metavar_char mv); repeat apply ne_dwrite_l; exact H. Qed.
Lemma ne_tref d f : (forall e, doc_text e <> [] -> doc_text (f e) <> []) -> doc_text d <> [] -> doc_text (tref d f) <> [].
Proof. intros Hf H. unfold tref. apply ne_dtok, Hf, ne_dtok, H. Qed.
Lemma ne_tref_lit d sty c : c <> [] -> doc_text (tref d (fun e => dwrite e sty c)) <> [].
Proof. intros H. unfold tref. apply ne_dtok. apply ne_dwrite, H. Qed.

(* The one idea of message_nonempty: every rendered message contains one of the fixed phrases of Message::render
   (the m_* constants of Model/Message.v), and each of them is a non-empty literal -- by evaluation. *)
Ltac phrase_nonempty := let H := fresh in intros H; vm_compute in H; discriminate H.

Theorem message_nonempty r s d :
  render_doc r s = Some d ->
  match r with
  | RPlain (MsgParseSome _) | RPlain (MsgParseFail _) | RPlain (MsgPureFailed _) | RPlain (MsgMissing _)
  | RPlain (MsgParseFailure _) => False
  | _ => True
  end ->
  doc_text d <> [].
Proof.
  intros H Hk. destruct r as [msg|w l|w l|ix sg|exp actual]; cbn [render_doc] in H.
  - (* RPlain *) destruct msg; try contradiction.
    + (* MsgNoEnv *) inversion H; subst. apply ne_dwrite. phrase_nonempty.
    + (* MsgStrictPos *) inversion H; subst. apply ne_tref_lit. discriminate.
    + (* MsgNonStrictPos *) inversion H; subst. apply ne_tref_lit. discriminate.
    + (* MsgParseFailed *) inversion H; subst. apply ne_dwrite_l, ne_dwrite. phrase_nonempty.
    + (* MsgGuardFailed *) inversion H; subst. apply ne_dwrite_l. destruct (textual_part s ix); [apply ne_dwrite; phrase_nonempty|apply ne_dwrite; phrase_nonempty].
    + (* MsgNoArgument *) destruct (nth_error (items s) ix) as [a|]; [|discriminate].
      assert (Hh : doc_text (tref (dwrite (tref [] (fun d0 => dwrite d0 SLiteral (arg_text a))) SText m_requires) (fun d0 => dmetavar d0 mv)) <> []).
      { apply ne_tref; [intros e He; apply ne_dmetavar, He|]. apply ne_dwrite. phrase_nonempty. }
      destruct (get s (S ix)) as [[c adj os|l adj os|?|?|?]|]; inversion H; subst; try exact Hh; apply ne_dwrite; phrase_nonempty.
    + (* MsgUnconsumed *) destruct (nth_error (items s) ix) as [a|]; [|discriminate]. inversion H; subst. apply ne_dwrite. phrase_nonempty.
    + (* MsgAmbiguity *) destruct (utf8_decode s0) as [[|f [|sc rest]]|]; try discriminate.
      destruct (nth_error (items s) ix) as [a|]; [|discriminate]. inversion H; subst. apply ne_dwrite. phrase_nonempty.
  - (* RConflict *) destruct (nth_error (items s) l) as [a|]; [|discriminate]. destruct (nth_error (items s) w) as [b|]; [|discriminate].
    inversion H; subst. apply ne_tref; [intros e He; apply ne_dwrite_l, He|]. apply ne_dwrite. phrase_nonempty.
  - (* ROnlyOnce *) destruct (nth_error (items s) l) as [a|]; [|discriminate]. inversion H; subst. apply ne_dwrite. phrase_nonempty.
  - (* RSuggestion *) destruct (nth_error (items s) ix) as [a|]; [|discriminate].
    destruct sg; inversion H; subst; apply ne_dwrite; phrase_nonempty.
  - (* RExpected *) destruct actual as [ix|].
    + destruct (nth_error (items s) ix) as [a|]; [|discriminate]. inversion H; subst. apply ne_dwrite. phrase_nonempty.
    + inversion H; subst. apply ne_dwrite. phrase_nonempty.
Qed.

(* the positions a message records are items of the line *)
Definition miss_ok (n : nat) (x : missing_item) : Prop :=
  fst (mi_scope x) <= snd (mi_scope x) /\ snd (mi_scope x) <= n /\ mi_position x <= snd (mi_scope x).
Definition msg_ok (n : nat) (m : message) : Prop :=
  match m with
  | MsgUnconsumed ix | MsgNoArgument ix _ => ix < n
  | MsgAmbiguity ix nm => ix < n /\ exists f sc r, utf8_decode nm = Some (f :: sc :: r)
  | MsgMissing xs => Forall (miss_ok n) xs
  | MsgParseFailure _ => False
  | _ => True
  end.

Lemma nth_some {A} (l : list A) i : i < length l -> exists x, nth_error l i = Some x.
Proof. intros H. destruct (nth_error l i) eqn:E; [eauto|]. apply nth_error_None in E. lia. Qed.

Theorem render_plain_returns msg s :
  msg_ok (length (items s)) msg -> render_doc (RPlain msg) s <> None.
Proof.
  intros H. destruct msg; cbn [render_doc msg_ok] in *; try discriminate; try contradiction.
  - destruct (nth_some (items s) ix H) as [a ->].
    destruct (get s (S ix)) as [[? ? ?|? ? ?|?|?|?]|]; discriminate.
  - destruct (nth_some (items s) ix H) as [a ->]. discriminate.
  - destruct H as [H (f & sc & r & ->)]. destruct (nth_some (items s) ix H) as [a ->]. discriminate.
Qed.

Lemma best_missing_in xs : forall b r, best_missing xs b = Some r -> (b = Some r \/ In r xs).
Proof.
  induction xs as [|x t IH]; intros b r H; cbn [best_missing] in H; [left; exact H|].
  destruct b as [b0|].
  - destruct (key_le _ _); apply IH in H; destruct H as [H|H]; auto; [inversion H; subst; right; left; reflexivity|right; right; exact H|right; right; exact H].
  - apply IH in H. destruct H as [H|H]; [inversion H; subst; right; left; reflexivity|right; right; exact H].
Qed.

Lemma first_item_lt s ix : first_item_ix s = Some ix -> exists a, nth_error (items s) ix = Some a.
Proof. unfold first_item_ix. intros H. apply find_item_some in H. destruct H as (_ & a & st & Ha & _). eauto. Qed.

Lemma suggest_ix s m ix sg : suggest s m = Some (ix, sg) -> exists a, nth_error (items s) ix = Some a.
Proof.
  unfold suggest. destruct (first_item_ix s) as [i|]; [|discriminate].
  destruct (nth_error (items s) i) as [a|] eqn:E; [|discriminate].
  intros H. assert (ix = i); [|subst; eauto].
  destruct (is_nil (arg_os a)); [discriminate|].
  (* whatever is suggested, it is suggested for position i *)
  set (K := match suggest_go _ _ _ with inl _ => _ | inr _ => _ end) in H.
  assert (HK : K = Some (ix, sg)) by (destruct a; try discriminate; exact H). clear H. subst K.
  destruct (suggest_go _ _ _) as [short|st]; [inversion HK; reflexivity|].
  destruct (ss_nest st) as [[name v]|]; [inversion HK; reflexivity|].
  destruct (ss_dist st); [|discriminate]. destruct (ss_match st) as [best|]; [|discriminate].
  destruct best; try (destruct (sl_long _); [destruct (obeqb _ _)|]); inversion HK; reflexivity.
Qed.

Lemma render_suggestion s ix sg a : nth_error (items s) ix = Some a -> render_doc (RSuggestion ix sg) s <> None.
Proof. intros H. cbn [render_doc]. rewrite H. destruct sg; discriminate. Qed.

Lemma summarize_missing_renders xs m s :
  Forall (miss_ok (length (ist s))) xs ->
  exists r, summarize_missing xs m s = Some r /\ render_doc r s <> None.
Proof.
  intros H. unfold summarize_missing. destruct (best_missing xs None) as [best|] eqn:E.
  2:{ eexists. split; [reflexivity|discriminate]. }
  apply best_missing_in in E. destruct E as [E|E]; [discriminate|].
  rewrite Forall_forall in H. destruct (H best E) as (H1 & H2 & H3).
  destruct (set_scope_some s (Nat.max (fst (mi_scope best)) (mi_position best)) (snd (mi_scope best))) as [s' Es]; [lia|exact H2|].
  rewrite Es. apply set_scope_fields in Es. destruct Es as (Hi & _).
  destruct (first_item_ix s') as [ix|] eqn:F.
  - apply first_item_lt in F. destruct F as [a Ha]. rewrite Hi in Ha.
    destruct (suggest s' m) as [[ix' sg]|] eqn:S.
    + apply suggest_ix in S. destruct S as [a' Ha']. rewrite Hi in Ha'.
      eexists. split; [reflexivity|]. eapply render_suggestion; eauto.
    + eexists. split; [reflexivity|]. cbn [render_doc]. rewrite Ha. discriminate.
  - eexists. split; [reflexivity|]. discriminate.
Qed.


(* in particular summarize_missing never hits the slice panic of State::set_scope *)
Theorem summarize_missing_returns xs m s :
  Forall (miss_ok (length (ist s))) xs -> summarize_missing xs m s <> None.
Proof. intros H. destruct (summarize_missing_renders xs m s H) as (r & -> & _). discriminate. Qed.
