(* LeafLaws.v -- laws of the primitive consumers (State::take_arg, positionals and strictness, the `--` separator,
   conversions that keep the bytes). *)
From BpafLemmas Require Import Tac Reach Ledger NoLoss C05Lemmas.

(* take_arg hands over exactly the bytes of the token that follows the key, whether that token is a
   separate word (`--name value`) or the attached part (`--name=value`), and consumes both *)
Theorem take_arg_value n adj s k w :
  find_item s (fun _ a => matches_arg n adj a) = Some k ->
  (get s (S k) = Some (Word w) \/ get s (S k) = Some (ArgWord w)) ->
  take_arg n adj s = TASome w (sremove (KArgVal n) (S k) (sremove (KArgKey n) k s)).
Proof.
  intros Hf Hg. unfold take_arg. rewrite Hf. destruct Hg as [-> | ->]; reflexivity.
Qed.

Theorem take_arg_no_value n adj s k :
  find_item s (fun _ a => matches_arg n adj a) = Some k ->
  (forall w, get s (S k) <> Some (Word w) /\ get s (S k) <> Some (ArgWord w)) ->
  take_arg n adj s = TAErr k.
Proof.
  intros Hf Hg. unfold take_arg. rewrite Hf.
  destruct (get s (S k)) as [[c a o|l a o|w|w|w]|] eqn:E; try reflexivity;
    destruct (Hg w) as [H1 H2]; congruence.
Qed.

(* byte-exact delivery for OS-string / path targets; String requires UTF-8 and is then exact *)
Theorem convert_os_exact w : convert TyOsString w = inl (VBytes w) /\ convert TyPathBuf w = inl (VBytes w).
Proof. split; reflexivity. Qed.

Theorem convert_string_exact w :
  (utf8_valid w = true -> convert TyString w = inl (VBytes w)) /\
  (utf8_valid w = false -> exists e, convert TyString w = inr e).
Proof. unfold convert. destruct (utf8_valid w); split; intros; try discriminate; eauto. Qed.

Theorem posword_not_named k w :
  accepts k (PosWord w) = true -> k = KPos \/ k = KAny.
Proof. destruct k; cbn; intros H; try discriminate; auto. Qed.

Theorem argword_only_value k w :
  accepts k (ArgWord w) = true -> (exists n, k = KArgVal n) \/ k = KAny.
Proof. destruct k; cbn; intros H; try discriminate; eauto. Qed.

Lemma convert_res_ok ty w s v s' : convert_res ty w s = (ROk v, s') -> convert ty w = inl v /\ s' = s.
Proof. unfold convert_res. destruct (convert ty w); intros H; inv H. auto. Qed.

Theorem eval_pos_ok mv ty pos help s v s' :
  eval_pos mv ty pos help s = (ROk v, s') ->
  exists ix w,
    find_item s (fun _ a => match a with Word _ | PosWord _ => true | _ => false end) = Some ix /\
    convert ty w = inl v /\ s' = sremove KPos ix s /\
    match pos with
    | Strict => nth_error (items s) ix = Some (PosWord w)
    | NonStrict => nth_error (items s) ix = Some (Word w)
    | Unrestricted => nth_error (items s) ix = Some (Word w) \/ nth_error (items s) ix = Some (PosWord w)
    end.
Proof.
  unfold eval_pos, take_positional_word.
  destruct (find_item s _) as [ix|] eqn:Hf; [|discriminate].
  destruct (nth_error (items s) ix) as [[c a o|l a o|w|w|w]|] eqn:Hn; try discriminate.
  all: destruct pos; try discriminate; intros H; apply convert_res_ok in H; destruct H as [Hc ->]; exists ix, w; auto.
Qed.

(* a strict positional facing a word from the left of `--` fails with the FINAL StrictPos error;
   a non-strict one facing a word from the right fails with the catchable NonStrictPos *)
Theorem strict_wrong_side mv ty help s ix w :
  find_item s (fun _ a => match a with Word _ | PosWord _ => true | _ => false end) = Some ix ->
  nth_error (items s) ix = Some (Word w) ->
  fst (eval_pos mv ty Strict help s) = RErr (MsgStrictPos ix mv) /\
  can_catch (MsgStrictPos ix mv) = false.
Proof.
  intros Hf Hn. unfold eval_pos, take_positional_word. rewrite Hf, Hn. split; reflexivity.
Qed.

Theorem nonstrict_wrong_side mv ty help s ix w :
  find_item s (fun _ a => match a with Word _ | PosWord _ => true | _ => false end) = Some ix ->
  nth_error (items s) ix = Some (PosWord w) ->
  fst (eval_pos mv ty NonStrict help s) = RErr (MsgNonStrictPos ix mv) /\
  can_catch (MsgNonStrictPos ix mv) = true.
Proof.
  intros Hf Hn. unfold eval_pos, take_positional_word. rewrite Hf, Hn. split; reflexivity.
Qed.

Lemma NoDup_fst_unique {A B} (l : list (A * B)) i x y : NoDup (map fst l) -> In (i, x) l -> In (i, y) l -> y = x.
Proof.
  induction l as [|[i0 z] t IH]; [intros _ []|]. cbn. intros Hnd Hx Hy.
  inversion Hnd as [|? ? Hnotin Hnd']; subst.
  destruct Hx as [E1|Hx], Hy as [E2|Hy].
  - inv E1. inv E2. reflexivity.
  - inv E1. exfalso. apply Hnotin. apply in_map_iff. exists (i, y). auto.
  - inv E2. exfalso. apply Hnotin. apply in_map_iff. exists (i, x). auto.
  - apply IH; auto.
Qed.

Lemma run_inner_marker K feat env o name argv v s' :
  okinds_ok K o ->
  run_inner_state feat env o name argv = (SOk v, s') ->
  forall m, t_marker (tokenize (fst (short_tables o)) (snd (short_tables o)) argv) = Some m ->
            In (m, KTok) (log s') /\ forall k, In (m, k) (log s') -> k = KTok.
Proof.
  intros Hk H m Hm.
  pose proof (run_inner_exactly_once K feat env o name argv v s' Hk H) as (Hnd & _ & _).
  unfold run_inner_state, initial_state in H.
  destruct (short_tables o) as [sf sa]. cbn [fst snd] in Hm.
  assert (Hlog0 : exists st amb, construct sf sa name argv = (st, amb) /\ log st = [(m, KTok)]).
  { unfold construct. rewrite Hm. eexists. eexists. split; reflexivity. }
  destruct Hlog0 as (st & amb & Hc & Hl0). rewrite Hc in H.
  assert (Hrun : run_sub env o st = (SOk v, s')).
  { destruct amb as [[ix sh]|]; [inv H|exact H]. }
  destruct (eval_good_all K env) as (_ & _ & Hgood). destruct (Hgood o Hk) as [Hreach _].
  pose proof (Hreach st) as R. rewrite Hrun in R. cbn in R.
  destruct (reach_ext _ _ _ R) as [l E].
  assert (Hin : In (m, KTok) (log s')).
  { rewrite (ext_log _ _ _ _ E), Hl0. apply in_or_app. right. left. reflexivity. }
  split; [exact Hin|].
  intros k Hk2. exact (NoDup_fst_unique (log s') m KTok k Hnd Hin Hk2).
Qed.
