(* CompNever.v -- with a completion request the outcome is never a parsed value and never an error message, for EVERY
   parser definition of the model (first clause of C14).  CompVisible.ceval_pres_all with R := rfin and Q := sfin:
   the completion state stays switched on with its revision, the items of the line never change, and every final
   failure a subcommand hands up is completion output or stdout -- a command level that still has the hints in hand
   answers with completion output. *)
From BpafLemmas Require Import Reach CompAlways CompPres CompVisible.
From BpafModel Require Import CompEval.

Lemma rfin_combine a b : rfin (RErr a) -> rfin (RErr b) -> rfin (RErr (combine_with a b)).
Proof.
  intros Ha Hb f E. inversion E as [Ec].
  destruct (combine_with_pf _ _ _ Ec) as [->| ->]; [exact (Ha f eq_refl)|exact (Hb f eq_refl)].
Qed.

Lemma sfin_rfin f : sfin (SFail f) -> rfin (RErr (MsgParseFailure f)).
Proof. intros H g E. inversion E. subst. exact H. Qed.

(* run_subparser returns before it looks at the hints: a final failure is handed on, the usage screen of a
   `fallback_to_usage` level goes to stdout *)
Lemma run_sub_body_early env inf m s r s1 :
  early inf s r = true -> rfin r -> sfin (fst (run_sub_body env inf m s (r, s1))).
Proof.
  intros Ee Hf. rewrite run_sub_body_eq. destruct r as [v|e|w|]; try discriminate; try exact I.
  destruct e; try (cbn [early] in Ee; cbn [andb]; rewrite Ee; destruct (invariant_ok m); exact I).
  destruct (_ && _ && _); [destruct (invariant_ok m); exact I|]. exact (Hf _ eq_refl).
Qed.

Section Never.
Variable rv : nat.
Variable its : list arg.
Hypothesis Hrev : rev_ok rv.
Hypothesis Hlit : forall s, items s = its -> lit_items s <> [].

Notation xinv := (xinv rv its).
Notation good := (good rv its).
Notation rgood := (rgood rv its).

Lemma krev_or_comps k0 stash sa ka sb kb pick :
  krev k0 = Some rv -> krev ka = Some rv -> krev kb = Some rv -> krev (or_comps k0 stash sa ka sb kb pick) = Some rv.
Proof. apply or_comps_krev. Qed.

Lemma level_fin env inf m x r s1 c1 :
  xinv (s1, Some c1) -> rfin r -> sfin (fst (c_run_sub_body env inf m x (r, (s1, Some c1)))).
Proof.
  intros [Hi1 Hk1] Hf. destruct x as [s k]. cbn [fst snd] in *. destruct (early inf s r) eqn:Ee.
  - unfold c_run_sub_body. cbn [fst]. rewrite Ee. pose proof (run_sub_body_early env inf m s r s1 Ee Hf) as Hs.
    destruct (run_sub_body env inf m s (r, s1)) as [pr ps]. exact Hs.
  - assert (Hc : rev_ok (cs_rev c1)) by (inversion Hk1; subst; exact Hrev).
    destruct (level_answers_with_completion env inf m s k r s1 c1 Ee (Hlit s1 Hi1) Hc) as [t ->]. exact I.
Qed.

Theorem ceval_good_all env docgen :
  (forall p, good (ceval env docgen p)) /\
  (forall ps, Forall good (cevals env docgen ps)) /\
  (forall o, rgood (crun_sub env docgen o)).
Proof.
  assert (HJ : judges rv its rfin sfin) by exact (conj (conj plain_rfin rfin_combine) (conj sfin_rfin level_fin)).
  destruct (ceval_pres_all rv its rfin sfin HJ env docgen) as (Hp & Hl & Ho).
  pose proof (fun Vn Vc => covers_top Vn Vc) as Htop.
  assert (Hg : forall cev, pres rv its rfin (fun _ => True) cev -> good cev).
  { intros cev H x Hx. specialize (H x (conj Hx (Forall_top _))).
    destruct (cev x) as [r x']. destruct H as [[Hx' _] Hr]. split; assumption. }
  split; [|split].
  - intros p. exact (Hg _ (Hp p _ _ _ (Htop _ _) (incl_refl _) (incl_refl _))).
  - intros ps. exact (Forall_impl _ Hg (Hl ps _ _ _ (Htop _ _) (incl_refl _) (incl_refl _))).
  - intros o x Hx. pose proof (Ho o _ _ _ (Htop _ _) (incl_refl _) (incl_refl _) x (conj Hx (Forall_top _))) as H.
    destruct (crun_sub env docgen o x) as [r x']. destruct H as [[Hx' _] Hr]. split; assumption.
Qed.

End Never.

Theorem request_never_value_or_error feat env o name argv rv0 :
  let x := fst (c_initial_state o name argv rv0) in
  forall c, snd x = Some c -> rev_ok (cs_rev c) -> lit_items (fst x) <> [] ->
  match c_run_inner feat env o name argv rv0 with
  | OutOk _ | OutStderr _ => False
  | _ => True
  end.
Proof.
  intros x c Hc Hr Hl. unfold c_run_inner, c_run_inner_state. subst x.
  destruct (c_initial_state o name argv rv0) as [[s0 k0] amb]. cbn [fst snd] in *. subst k0.
  assert (Hlit : forall s, items s = items s0 -> lit_items s <> []).
  { intros s E. unfold lit_items in *. rewrite E. exact Hl. }
  assert (Hx : xinv (cs_rev c) (items s0) (s0, Some c)) by (split; reflexivity).
  destruct (proj2 (proj2 (ceval_good_all (cs_rev c) (items s0) Hr Hlit env (f_docgen feat))) o _ Hx) as [_ Hf].
  destruct amb as [[ix short]|]; cbn [snd];
    (destruct (crun_sub env (f_docgen feat) o (s0, Some c)) as [r x']; cbn [fst snd] in *;
     destruct r as [v|f|w|]; cbn [outcome_of]; try exact I; try contradiction; destruct f; cbn in Hf; try exact I; contradiction).
Qed.
