(* C05Lemmas.v -- "exactly once" (C05): a level that succeeds on a full-scope state leaves every item dead, and the
   ghost log then lists each item once, with a consumer that accepts it.  The initial state built by `construct` is
   such a state; its log holds at most the tokenizer's `--` marker. *)
From BpafLemmas Require Import Tac Find Reach Ledger NoLoss.

Definition full_scope (s : state) : Prop := sc_start s = 0 /\ sc_end s = length (items s).

Lemma live_lt s i : live s i -> i < length (ist s).
Proof.
  unfold live, present_at, ist_at. intros H. apply nth_error_Some.
  destruct (nth_error (ist s) i); [discriminate|discriminate].
Qed.

Lemma lt_live_or_dead s i : i < length (ist s) -> live s i \/ dead s i.
Proof.
  intros H. unfold live, dead, present_at, ist_at.
  destruct (nth_error (ist s) i) as [st|] eqn:E; [|apply nth_error_None in E; lia].
  cbn. destruct (present st); auto.
Qed.

Lemma no_live s : lenwf s -> first_item_ix s = None -> forall i, in_scope s i = true -> ~ live s i.
Proof.
  intros Hw Hf i Hin Hl. unfold first_item_ix in Hf.
  pose proof (live_lt _ _ Hl) as Hlt.
  unfold live, present_at, ist_at in Hl.
  destruct (nth_error (ist s) i) as [st|] eqn:Hst; [|discriminate]. cbn in Hl. inv Hl.
  destruct (nth_error (items s) i) as [a|] eqn:Ha;
    [|apply nth_error_None in Ha; unfold lenwf in Hw; lia].
  pose proof (find_item_none _ _ Hf i a st Hin Ha Hst) as Hc.
  assert (true = false) by (apply Hc; assumption). discriminate.
Qed.

Lemma full_scope_in s i : full_scope s -> lenwf s -> i < length (ist s) -> in_scope s i = true.
Proof.
  intros [H1 H2] Hw Hi. unfold in_scope. rewrite H1, H2. unfold lenwf in Hw.
  apply andb_true_intro. split; [apply Nat.leb_le; lia|apply Nat.ltb_lt; lia].
Qed.

Lemma run_ok_all_dead env o s v s' :
  lenwf s -> full_scope s -> run_sub env o s = (SOk v, s') ->
  forall i, i < length (ist s) -> dead s' i.
Proof.
  intros Hw Hfull Hrun.
  destruct (eval_good_all (fun _ => True) env) as (_ & _ & Hgood).
  destruct (Hgood o (proj2 (proj2 kinds_ok_true) o)) as [Hreach Hnl].
  pose proof (Hreach s) as R. rewrite Hrun in R. cbn in R.
  destruct (Hnl _ _ _ Hw Hrun) as [N Hfirst].
  assert (Hw' : lenwf s') by (eapply reach_lenwf; eauto).
  destruct (reach_ext _ _ _ R) as [l E].
  intros i Hi.
  destruct (lt_live_or_dead s' i) as [Hl|Hd]; [rewrite (ext_len _ _ _ _ E); exact Hi| |exact Hd].
  exfalso. eapply (no_live s' Hw' Hfirst i); [|exact Hl].
  apply N; [|exact Hl]. apply full_scope_in; assumption.
Qed.

Lemma exactly_once_reach K s s' :
  reach K s s' -> (forall i, i < length (ist s) -> dead s' i) ->
  exists l,
    log s' = l ++ log s /\
    NoDup (map fst l) /\
    (forall i, live s i -> In i (map fst l)) /\
    (forall i k, In (i, k) l ->
       K k /\ live s i /\ forall a, nth_error (items s) i = Some a -> accepts k a = true).
Proof.
  intros R Hdead. destruct (reach_ext _ _ _ R) as [l E].
  exists l. split; [apply (ext_log _ _ _ _ E)|].
  split; [apply (ext_nodup _ _ _ _ E)|].
  split.
  - intros i Hl. apply (ext_complete _ _ _ _ E); [exact Hl|]. apply Hdead. eapply live_lt; eauto.
  - intros i k Hin. destruct (ext_entries _ _ _ _ E i k Hin) as (H1 & H2 & _ & H4). auto.
Qed.

Lemma reach_claimed K s s' i a :
  reach K s s' -> (forall j, j < length (ist s) -> dead s' j) ->
  live s i -> nth_error (items s) i = Some a -> exists k, K k /\ accepts k a = true.
Proof.
  intros R Hdead Hl Ha. destruct (exactly_once_reach K s s' R Hdead) as (l & _ & _ & Hcov & Hent).
  specialize (Hcov i Hl). apply in_map_iff in Hcov. destruct Hcov as [[i' k] [Hfst Hin]].
  cbn in Hfst. subst i'. destruct (Hent i k Hin) as (Hk & _ & Hacc). eauto.
Qed.

Theorem exactly_once :
  forall K env o s v s',
    okinds_ok K o -> lenwf s -> full_scope s ->
    run_sub env o s = (SOk v, s') ->
    exists l,
      log s' = l ++ log s /\
      NoDup (map fst l) /\
      (forall i, live s i -> In i (map fst l)) /\
      (forall i k, In (i, k) l ->
         K k /\ live s i /\ forall a, nth_error (items s) i = Some a -> accepts k a = true) /\
      (forall i, i < length (items s) -> dead s' i).
Proof.
  intros K env o s v s' Hk Hw Hfull Hrun.
  pose proof (run_ok_all_dead env o s v s' Hw Hfull Hrun) as Hdead.
  pose proof (run_sub_reach K env o Hk s) as R. rewrite Hrun in R.
  destruct (exactly_once_reach K s s' R Hdead) as (l & H1 & H2 & H3 & H4).
  exists l. split; [exact H1|]. split; [exact H2|]. split; [exact H3|]. split; [exact H4|].
  intros j Hj. apply Hdead. unfold lenwf in Hw. lia.
Qed.

Lemma tok_go_marker sf sa argv pos_only acc marker :
  (forall m, marker = Some m -> m < length acc) ->
  forall m, t_marker (tok_go sf sa argv pos_only acc marker) = Some m ->
            m < length (t_items (tok_go sf sa argv pos_only acc marker)).
Proof.
  revert pos_only acc marker. induction argv as [|os more IH]; intros pos_only acc marker Hm m H.
  - cbn in *. rewrite rev_length. auto.
  - cbn [tok_go] in *.
    assert (Hgrow : forall (acc' : list arg) (mk : option nat), length acc <= length acc' ->
                      (mk = marker \/ mk = Some (length acc) /\ length acc < length acc') ->
                      forall m0, mk = Some m0 -> m0 < length acc').
    { intros acc' mk Hle [->|[-> Hlt]] m0 E; [specialize (Hm _ E); lia|inv E; lia]. }
    destruct pos_only.
    + apply IH in H; [exact H|]. apply (Hgrow _ marker); cbn; auto.
    + destruct (split_os_argument os) as [[[ty nm] body]|] eqn:Hs.
      * destruct ty.
        { destruct body as [body|].
          - destruct (utf8_decode nm) as [[|c cs]|]; cbn in H |- *;
              try (rewrite rev_length; auto; fail).
            apply IH in H; [exact H|]. apply (Hgrow _ marker); cbn; auto.
          - destruct (utf8_decode nm) as [cs|]; cbn in H |- *; [|rewrite rev_length; auto].
            destruct (disambiguate_short sf sa os cs) as [pushed|pushed].
            + apply IH in H; [exact H|]. apply (Hgrow _ marker); auto.
              rewrite app_length. lia.
            + cbn in H |- *. rewrite rev_length, app_length. specialize (Hm _ H). lia. }
        { destruct body as [body|]; (apply IH in H; [exact H|]); apply (Hgrow _ marker); cbn; auto. }
      * destruct (beqb os dashdash).
        { apply IH in H; [exact H|]. apply (Hgrow _ (Some (length acc))); cbn; auto. }
        { apply IH in H; [exact H|]. apply (Hgrow _ marker); cbn; auto. }
Qed.

Lemma tokenize_marker sf sa argv m :
  t_marker (tokenize sf sa argv) = Some m -> m < length (t_items (tokenize sf sa argv)).
Proof. apply (tok_go_marker sf sa argv false [] None). discriminate. Qed.

Record init_ok (st : state) : Prop := mkInitOk {
  io_wf : lenwf st;
  io_full : full_scope st;
  io_log : (log st = [] /\ forall i, i < length (items st) -> live st i) \/
           (exists m, log st = [(m, KTok)] /\ m < length (items st) /\ dead st m /\
                      forall i, i < length (items st) -> i <> m -> live st i) }.

Lemma construct_ok sf sa name argv : init_ok (fst (construct sf sa name argv)).
Proof.
  unfold construct. set (t := tokenize sf sa argv).
  pose proof (tokenize_marker sf sa argv) as Hmk. fold t in Hmk.
  destruct (t_marker t) as [m|] eqn:Hm; cbn.
  - specialize (Hmk m eq_refl).
    constructor; cbn.
    + unfold lenwf; cbn. rewrite update_nth_length, repeat_length. reflexivity.
    + split; reflexivity.
    + right. exists m. split; [reflexivity|]. split; [exact Hmk|]. split.
      * unfold dead, present_at, ist_at; cbn. rewrite update_nth_same; [reflexivity|].
        rewrite repeat_length. exact Hmk.
      * intros i Hi Hne. unfold live, present_at, ist_at; cbn.
        rewrite update_nth_other by exact Hne. rewrite nth_error_repeat by exact Hi. reflexivity.
  - constructor; cbn.
    + unfold lenwf; cbn. rewrite repeat_length. reflexivity.
    + split; reflexivity.
    + left. split; [reflexivity|]. intros i Hi. unfold live, present_at, ist_at; cbn.
      rewrite nth_error_repeat by exact Hi. reflexivity.
Qed.

Lemma NoDup_app_singleton {A} (l : list A) (x : A) : NoDup l -> ~ In x l -> NoDup (l ++ [x]).
Proof.
  induction l as [|h t IH]; intros Hnd Hx; cbn.
  - constructor; [intros []|constructor].
  - inversion Hnd as [|? ? Hh Ht]; subst. constructor.
    + intros Hin. apply in_app_or in Hin. destruct Hin as [Hin|[E|[]]]; [auto|].
      subst. apply Hx. left. reflexivity.
    + apply IH; [exact Ht|]. intros Hin. apply Hx. right. exact Hin.
Qed.

Theorem run_inner_exactly_once :
  forall K feat env o name argv v s',
    okinds_ok K o ->
    run_inner_state feat env o name argv = (SOk v, s') ->
    let n := length (items s') in
    NoDup (map fst (log s')) /\
    (forall i, i < n -> In i (map fst (log s'))) /\
    (forall i k, In (i, k) (log s') ->
       i < n /\ (k = KTok \/ (K k /\ forall a, nth_error (items s') i = Some a -> accepts k a = true))).
Proof.
  intros K feat env o name argv v s' Hk H n.
  unfold run_inner_state, initial_state in H.
  destruct (short_tables o) as [sf sa].
  pose proof (construct_ok sf sa name argv) as Hinit.
  destruct (construct sf sa name argv) as [st amb]. cbn in Hinit.
  assert (Hrun : run_sub env o st = (SOk v, s')).
  { destruct amb as [[ix sh]|]; [inv H|exact H]. }
  clear H. destruct Hinit as [Hw Hfull Hlog].
  destruct (exactly_once K env o st v s' Hk Hw Hfull Hrun) as (l & Hl & Hnd & Hcov & Hent & Hdead).
  assert (Hitems : items s' = items st).
  { pose proof (run_sub_reach K env o Hk st) as R. rewrite Hrun in R.
    destruct (reach_ext _ _ _ R) as [l0 E]. apply (ext_items _ _ _ _ E). }
  subst n. rewrite Hitems.
  assert (Hlt : forall i, live st i -> i < length (items st)).
  { intros i Hi. apply live_lt in Hi. unfold lenwf in Hw. lia. }
  destruct Hlog as [[Hl0 Hall]|(m & Hl0 & Hm & Hdm & Hall)]; rewrite Hl, Hl0.
  - rewrite app_nil_r. split; [exact Hnd|]. split.
    + intros i Hi. apply Hcov. apply Hall. exact Hi.
    + intros i k Hin. destruct (Hent i k Hin) as (H1 & H2 & H3). split; [auto|]. right. auto.
  - rewrite map_app. cbn. split.
    + apply NoDup_app_singleton; [exact Hnd|]. intros Hin. apply in_map_iff in Hin.
      destruct Hin as [[i k] [E Hin]]. cbn in E. subst i.
      destruct (Hent m k Hin) as (_ & Hlv & _). eapply live_dead_excl; eauto.
    + split.
      * intros i Hi. apply in_or_app. destruct (Nat.eq_dec i m) as [->|Hne]; [right; left; reflexivity|].
        left. apply Hcov. apply Hall; assumption.
      * intros i k Hin. apply in_app_or in Hin. destruct Hin as [Hin|[E|[]]].
        -- destruct (Hent i k Hin) as (H1 & H2 & H3). split; [auto|]. right. auto.
        -- inv E. split; [exact Hm|]. left. reflexivity.
Qed.

Definition c05_example_parser : oparser :=
  Options (PCon (PCons (PFlag (mkNamed [118%N] [] [] None) (VBool true) (Some (VBool false)))
                (PCons (PArg (mkNamed [] [[110; 117; 109]%N] [] None) [78%N] TyU32 false)
                (PCons (PPos [70%N] TyString Unrestricted None) PNil))))
          default_info.
(* -v --num 12 file *)
Definition c05_example_argv : list bytes :=
  [[45; 118]; [45; 45; 110; 117; 109]; [49; 50]; [102; 105; 108; 101]]%N.
