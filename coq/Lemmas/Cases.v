(* Cases.v -- what the large bodies of Model/State.v and Model/Eval.v compute, case by case, so that
   proofs about them argue from these statements and leave the bodies folded. *)
From BpafLemmas Require Import Tac Find.

Lemma in_scope_iff s i : in_scope s i = true <-> sc_start s <= i < sc_end s.
Proof. unfold in_scope. rewrite andb_true_iff, Nat.leb_le, Nat.ltb_lt. tauto. Qed.

Lemma set_scope_fields s a b s' :
  set_scope s a b = Some s' ->
  items s' = items s /\ ist s' = ist s /\ log s' = log s /\ path s' = path s /\
  current s' = current s /\ sc_start s' = a /\ sc_end s' = b /\
  a <= b /\ b <= length (ist s).
Proof.
  unfold set_scope. destruct (Nat.leb a b && Nat.leb b (length (ist s))) eqn:Hc; [|discriminate].
  intros H; inv H. cbn. apply andb_prop in Hc. destruct Hc as [H1 H2].
  apply Nat.leb_le in H1. apply Nat.leb_le in H2. repeat split; auto.
Qed.

Lemma set_scope_some s a b : a <= b -> b <= length (ist s) -> exists s', set_scope s a b = Some s'.
Proof.
  intros H1 H2. unfold set_scope. apply Nat.leb_le in H1. apply Nat.leb_le in H2. rewrite H1, H2. eexists; reflexivity.
Qed.

(* a window of `orig`: the same line and ledger, another scope *)
Definition window (orig ta : state) : Prop := exists a b, set_scope orig a b = Some ta.

Lemma set_scope_twice s a b t c d : set_scope s a b = Some t -> set_scope t c d = set_scope s c d.
Proof.
  unfold set_scope at 1. destruct (_ && _); [|discriminate]. intros H; inv H. reflexivity.
Qed.

Definition halts (r : eres) : bool := match r with RPanic _ | RFuel => true | _ => false end.

Definition err_of (r : eres) : option message := match r with RErr e => Some e | _ => None end.

Lemma convert_res_snd ty w s : snd (convert_res ty w s) = s.
Proof. unfold convert_res. destruct (convert ty w); reflexivity. Qed.

Lemma combine_with_cases a b :
  combine_with a b = a \/ combine_with a b = b \/
  exists x y, a = MsgMissing x /\ b = MsgMissing y /\ combine_with a b = MsgMissing (x ++ y).
Proof.
  destruct a, b; try (left; reflexivity); try (right; left; reflexivity). right; right; eauto.
Qed.

Lemma this_or_that_cases ra rb s sa sb d s' :
  this_or_that ra rb s sa sb = (d, s') ->
  match d with
  | inl true =>
    err_of ra = None /\ (s' = sa \/ exists w, w < length (ist sa) /\ s' = save_conflicts sa sb w)
  | inl false =>
    err_of rb = None /\ (s' = sb \/ exists w, w < length (ist sb) /\ s' = save_conflicts sb sa w)
  | inr e =>
    (err_of ra = Some e /\ s' = sa) \/ (err_of rb = Some e /\ s' = sb) \/
    exists ea eb, err_of ra = Some ea /\ err_of rb = Some eb /\ e = combine_with ea eb /\ s' = s
  end.
Proof.
  unfold this_or_that. cbv zeta. fold (err_of ra). fold (err_of rb). intros H.
  destruct (Nat.compare (depth sa) (depth sb)).
  - destruct (err_of ra) as [ea|], (err_of rb) as [eb|]; try (inv H; eauto 8; fail).
    destruct (Nat.eqb (remaining s) (remaining sa) && Nat.eqb (remaining s) (remaining sb)); [inv H; auto|].
    destruct (pick_winner sa sb) as [pick [w|]] eqn:Ep.
    + apply pick_winner_lt in Ep. destruct pick; inv H; split; auto; right; exists w; tauto.
    + destruct pick; inv H; auto.
  - destruct (err_of rb); inv H; auto.
  - destruct (err_of ra); inv H; auto.
Qed.

Definition or_pick (ra rb : eres) (d : bool + message) : eres :=
  match d with inl true => ra | inl false => rb | inr e => RErr e end.

Lemma or_body_eq eva evb s :
  or_body eva evb s =
  if halts (fst (eva s)) then eva s
  else if halts (fst (evb s)) then evb s
  else let '(d, s') := this_or_that (fst (eva s)) (fst (evb s)) s (snd (eva s)) (snd (evb s)) in
       (or_pick (fst (eva s)) (fst (evb s)) d, s').
Proof.
  unfold or_body. destruct (eva s) as [ra sa]. destruct (evb s) as [rb sb]. cbn [fst snd].
  destruct ra; cbn [halts]; try reflexivity;
    (destruct rb; cbn [halts]; try reflexivity; destruct (this_or_that _ _ s sa sb) as [[[|]|e] s']; reflexivity).
Qed.

Lemma or_body_state eva evb s :
  let sa := snd (eva s) in let sb := snd (evb s) in let s' := snd (or_body eva evb s) in
  s' = s \/ s' = sa \/ s' = sb \/
  (exists w, w < length (ist sa) /\ s' = save_conflicts sa sb w) \/
  (exists w, w < length (ist sb) /\ s' = save_conflicts sb sa w).
Proof.
  cbv zeta. rewrite or_body_eq. destruct (halts (fst (eva s))); [auto|]. destruct (halts (fst (evb s))); [auto|].
  destruct (this_or_that _ _ s _ _) as [d s'] eqn:E. apply this_or_that_cases in E. cbn [snd].
  destruct d as [[|]|e]; [tauto|tauto|]. destruct E as [[_ ->]|[[_ ->]|(ea & eb & _ & _ & _ & ->)]]; auto.
Qed.

Lemma or_body_ok eva evb s v s' :
  or_body eva evb s = (ROk v, s') ->
  (exists sa, eva s = (ROk v, sa) /\
     (s' = sa \/ exists w, w < length (ist sa) /\ s' = save_conflicts sa (snd (evb s)) w)) \/
  (exists sb, evb s = (ROk v, sb) /\
     (s' = sb \/ exists w, w < length (ist sb) /\ s' = save_conflicts sb (snd (eva s)) w)).
Proof.
  rewrite or_body_eq. destruct (eva s) as [ra sa]. destruct (evb s) as [rb sb]. cbn [fst snd].
  destruct (halts ra) eqn:Ha; [intros H; inv H; discriminate|].
  destruct (halts rb) eqn:Hb; [intros H; inv H; discriminate|].
  destruct (this_or_that ra rb s sa sb) as [d s0] eqn:E. apply this_or_that_cases in E.
  intros H; inv H. destruct d as [[|]|e]; cbn in *; [left|right|discriminate]; subst; destruct E as [_ E]; eauto.
Qed.

Definition caught (catch : bool) (e : message) (s s' : state) : bool :=
  catch || (is_missing e && Nat.eqb (remaining s) (remaining s')) || (negb (is_missing e) && can_catch e).

Lemma parse_option_cases ev len s catch :
  match parse_option ev len s catch with
  | (OSome v, len', s') => ev s = (ROk v, s') /\ lt_len (remaining s') len = true /\ len' = Some (remaining s')
  | (ONone, len', s') =>
    len' = len /\
    ((exists v, ev s = (ROk v, s') /\ lt_len (remaining s') len = false) \/
     (exists e s1, ev s = (RErr e, s1) /\ caught catch e s s1 = true /\ s' = s))
  | (OErr e, len', s') => len' = len /\ ev s = (RErr e, s') /\ caught catch e s s' = false
  | (OPanic w, len', s') => len' = len /\ ev s = (RPanic w, s')
  | (OFuel, len', s') => len' = len /\ ev s = (RFuel, s')
  end.
Proof.
  unfold parse_option, caught. destruct (ev s) as [r s1]. destruct r as [v|e|w|].
  - destruct (lt_len (remaining s1) len) eqn:L; eauto 6.
  - destruct (catch || _ || _) eqn:C; eauto 8.
  - auto.
  - auto.
Qed.

Lemma parse_option_state ev len s catch :
  snd (parse_option ev len s catch) = s \/ snd (parse_option ev len s catch) = snd (ev s).
Proof.
  unfold parse_option. destruct (ev s) as [r s1]. destruct r; cbn; auto.
  - destruct (lt_len _ _); auto.
  - destruct (_ || _ || _); auto.
Qed.

(* The windows adj_try opens do not depend on the member parser: the probe window of `width` items, and the
   window (with the count of what it holds) the retry loop starts on. *)
Inductive adj_windows :=
| WPanic
| WEmpty
| WProbe (scratch : state) (rest : option (nat * state)).

Definition adj_open (orig : state) (width start : nat) : adj_windows :=
  match set_scope orig start (length (items orig)) with
  | None => WPanic
  | Some ta0 =>
    match set_scope ta0 start (start + width) with
    | None => WPanic
    | Some scratch =>
      if Nat.eqb (remaining scratch) 0 then WEmpty
      else WProbe scratch
        match set_scope ta0 start (sc_end orig) with
        | None => None
        | Some ta1 =>
          match (if Nat.ltb (remaining ta1) (sc_end orig - start)
                 then let '(a, b) := adjacently_available_from ta1 start in set_scope ta1 a b
                 else Some ta1) with
          | None => None
          | Some ta2 => Some (remaining ta1, ta2)
          end
        end
    end
  end.

Lemma adj_try_eq ev orig width start best :
  adj_try ev orig width start best =
  match adj_open orig width start with
  | WPanic => AStop (RPanic P_set_scope) orig
  | WEmpty => ANext best
  | WProbe scratch rest =>
    let '(r0, scratch') := ev scratch in
    if halts r0 then AStop r0 scratch'
    else if Nat.eqb (remaining scratch) (remaining scratch') then ANext best
    else match rest with
         | None => AStop (RPanic P_set_scope) orig
         | Some (before, ta) => adj_inner ev orig before (loop_fuel orig) ta best
         end
  end.
Proof.
  unfold adj_try, adj_open.
  destruct (set_scope orig start (length (items orig))) as [ta0|]; [|reflexivity].
  destruct (set_scope ta0 start (start + width)) as [scratch|]; [|reflexivity].
  destruct (Nat.eqb (remaining scratch) 0); [reflexivity|].
  destruct (ev scratch) as [r0 scratch'].
  destruct r0; cbn [halts]; try reflexivity;
    (destruct (Nat.eqb (remaining scratch) (remaining scratch')); [reflexivity|];
     destruct (set_scope ta0 start (sc_end orig)) as [ta1|]; [|reflexivity];
     destruct (if Nat.ltb (remaining ta1) (sc_end orig - start) then _ else _); reflexivity).
Qed.

Lemma adj_open_probe orig width start scratch rest :
  adj_open orig width start = WProbe scratch rest ->
  set_scope orig start (start + width) = Some scratch /\ remaining scratch <> 0 /\
  match rest with
  | Some (before, ta) =>
    exists ta1 b, set_scope orig start (sc_end orig) = Some ta1 /\ before = remaining ta1 /\
                  set_scope orig start b = Some ta /\
                  (b = sc_end orig \/
                   remaining ta1 < sc_end orig - start /\ b = snd (adjacently_available_from orig start))
  | None => True
  end.
Proof.
  unfold adj_open.
  destruct (set_scope orig start (length (items orig))) as [ta0|] eqn:E0; [|discriminate].
  destruct (set_scope ta0 start (start + width)) as [sc|] eqn:E1; [|discriminate].
  destruct (Nat.eqb (remaining sc) 0) eqn:E; [discriminate|]. intros H; inv H.
  rewrite (set_scope_twice _ _ _ _ _ _ E0) in E1. split; [exact E1|]. split; [apply Nat.eqb_neq; exact E|].
  rewrite (set_scope_twice _ _ _ _ _ _ E0).
  destruct (set_scope orig start (sc_end orig)) as [ta1|] eqn:E2; [|exact I].
  destruct (Nat.ltb (remaining ta1) (sc_end orig - start)) eqn:L.
  - assert (Ei : ist ta1 = ist orig) by (apply set_scope_fields in E2; apply E2).
    rewrite Ei, (set_scope_twice _ _ _ _ _ _ E2).
    change (start + length (take_while present (skipn start (ist orig))))
      with (snd (adjacently_available_from orig start)).
    destruct (set_scope orig start (snd (adjacently_available_from orig start))) as [ta2|] eqn:E3; [|exact I].
    exists ta1, (snd (adjacently_available_from orig start)). apply Nat.ltb_lt in L. repeat split; auto.
  - exists ta1, (sc_end orig). repeat split; auto.
Qed.

Lemma adj_open_windows orig width start scratch rest :
  adj_open orig width start = WProbe scratch rest ->
  window orig scratch /\ match rest with Some (_, ta) => window orig ta | None => True end.
Proof.
  intros H. apply adj_open_probe in H. destruct H as (H1 & _ & H2). split; [eexists; eexists; exact H1|].
  destruct rest as [[before ta]|]; [|exact I]. destruct H2 as (ta1 & b & _ & _ & H2 & _). eexists; eexists; exact H2.
Qed.

Lemma adj_inner_cases ev orig before : forall fuel ta best,
  match adj_inner ev orig before fuel ta best with
  | AReturn v fin =>
    exists ta' t1, (ta' = ta \/ window orig ta') /\ ev ta' = (ROk v, t1) /\
                   adjacent_scope t1 orig = ASNone /\ set_scope t1 (sc_start orig) (sc_end orig) = Some fin
  | ANext b =>
    b = best \/
    exists ta' t1 e, (ta' = ta \/ window orig ta') /\ ev ta' = (RErr e, t1) /\ remaining t1 <= before /\
                     b = mkBest (before - remaining t1) t1 e
  | AStop r _ => halts r = true
  end.
Proof.
  induction fuel as [|f IH]; intros ta best; [reflexivity|].
  rewrite adj_inner_S. destruct (ev ta) as [r t1] eqn:E. destruct r as [v|e|w|]; try reflexivity.
  - destruct (adjacent_scope t1 orig) as [| |a b] eqn:A; try reflexivity.
    + destruct (set_scope t1 (sc_start orig) (sc_end orig)) as [fin|] eqn:S; [|reflexivity]. exists ta, t1. auto.
    + destruct (set_scope orig a b) as [ta'|] eqn:S; [|reflexivity].
      assert (W : window orig ta') by (exists a, b; exact S).
      specialize (IH ta' best). destruct (adj_inner ev orig before f ta' best) as [v' fin|b'|r st]; [| |exact IH].
      * destruct IH as (t & t' & [->|Ht] & IH). -- exists ta', t'. auto. -- exists t, t'. auto.
      * destruct IH as [->|(t & t' & e & [->|Ht] & IH)]; [auto| |]; right. -- exists ta', t', e. auto. -- exists t, t', e. auto.
  - destruct (Nat.ltb before (remaining t1)) eqn:L; [reflexivity|]. apply Nat.ltb_ge in L.
    cbv zeta. destruct (Nat.ltb (b_consumed best) (before - remaining t1)); [|auto]. right. exists ta, t1, e. auto.
Qed.

Lemma adj_try_cases ev orig width start best :
  match adj_try ev orig width start best with
  | AReturn v fin =>
    exists ta t1, window orig ta /\ ev ta = (ROk v, t1) /\
                  adjacent_scope t1 orig = ASNone /\ set_scope t1 (sc_start orig) (sc_end orig) = Some fin
  | ANext b =>
    b = best \/ exists ta, window orig ta /\ ev ta = (RErr (b_err b), b_args b)
  | AStop r _ => halts r = true
  end.
Proof.
  rewrite adj_try_eq. destruct (adj_open orig width start) as [| |scratch rest] eqn:O; [reflexivity|auto|].
  apply adj_open_windows in O. destruct O as [Ws Wr].
  destruct (ev scratch) as [r0 scratch']. destruct (halts r0) eqn:Hh; [exact Hh|].
  destruct (Nat.eqb (remaining scratch) (remaining scratch')); [auto|].
  destruct rest as [[before ta]|]; [|reflexivity].
  pose proof (adj_inner_cases ev orig before (loop_fuel orig) ta best) as C.
  destruct (adj_inner ev orig before (loop_fuel orig) ta best) as [v fin|b|r st]; [| |exact C].
  - destruct C as (ta' & t1 & [->|W] & C); eauto.
  - destruct C as [->|(ta' & t1 & e & W & E & _ & ->)]; [auto|]. right. destruct W as [->|W]; eauto.
Qed.

Lemma adj_outer_cases ev orig width : forall starts best,
  match adj_outer ev orig width starts best with
  | (ROk v, s') =>
    exists ta t1, window orig ta /\ ev ta = (ROk v, t1) /\
                  adjacent_scope t1 orig = ASNone /\ set_scope t1 (sc_start orig) (sc_end orig) = Some s'
  | (RErr e, s') =>
    exists b, (b = best \/ exists ta, window orig ta /\ ev ta = (RErr (b_err b), b_args b)) /\
              e = b_err b /\ set_scope (b_args b) (sc_start orig) (sc_end orig) = Some s'
  | (_, s') => s' = orig
  end.
Proof.
  induction starts as [|st more IH]; intros best; cbn [adj_outer].
  - destruct (set_scope (b_args best) (sc_start orig) (sc_end orig)) as [fin|] eqn:E; [|reflexivity]. exists best. auto.
  - pose proof (adj_try_cases ev orig width st best) as C.
    destruct (adj_try ev orig width st best) as [v fin|b|r sx]; [exact C| |destruct r; try discriminate; reflexivity].
    specialize (IH b). destruct (adj_outer ev orig width more b) as [[v|e|w|] s']; try exact IH.
    destruct IH as (b' & [Hb|H] & IH); exists b'; [|auto]. subst b'. destruct C as [->|C]; auto.
Qed.

Lemma eval_adjacent_cases ev fi s :
  match eval_adjacent ev fi s with
  | (ROk v, s') =>
    exists ta t1, window s ta /\ ev ta = (ROk v, t1) /\
                  adjacent_scope t1 s = ASNone /\ set_scope t1 (sc_start s) (sc_end s) = Some s'
  | (RErr e, s') =>
    exists t, ((exists it, fi = Some it /\ e = missing_msg it s /\ t = s) \/
               exists ta, window s ta /\ ev ta = (RErr e, t)) /\
              set_scope t (sc_start s) (sc_end s) = Some s'
  | (_, s') => s' = s
  end.
Proof.
  unfold eval_adjacent. destruct fi as [it|]; [|reflexivity].
  pose proof (adj_outer_cases ev s (item_width it) (adj_starts s (item_width it)) (mkBest 0 s (missing_msg it s))) as C.
  destruct (adj_outer _ _ _ _ _) as [[v|e|w|] s']; try exact C.
  destruct C as (b & Hb & He & E). subst e. exists (b_args b). split; [|exact E].
  destruct Hb as [->|H]; [left; exists it; auto|right; exact H].
Qed.

Definition is_cmd (word : bytes) (a : arg) : bool :=
  match a with Word w | Short _ _ w | Long _ false w => beqb w word | _ => false end.

(* State::take_cmd: the name must be the first live item of the scope; nothing else is looked at *)
Lemma take_cmd_eq word s :
  take_cmd word s =
  match first_item_ix s with
  | Some ix =>
    match nth_error (items s) ix with
    | Some a => if is_cmd word a
                then (true, set_current (sremove (KCmd word) ix s) (Some ix))
                else (false, set_current s None)
    | None => (false, set_current s None)
    end
  | None => (false, set_current s None)
  end.
Proof.
  unfold take_cmd. destruct (first_item_ix s) as [ix|]; [|reflexivity].
  destruct (nth_error (items s) ix) as [[c adj w|nm adj w|w|w|w]|]; cbn; try reflexivity.
  destruct adj; reflexivity.
Qed.

Lemma take_cmd_cases word s :
  (exists ix a, first_item_ix s = Some ix /\ nth_error (items s) ix = Some a /\ is_cmd word a = true /\
     take_cmd word s = (true, set_current (sremove (KCmd word) ix s) (Some ix))) \/
  take_cmd word s = (false, set_current s None).
Proof.
  rewrite take_cmd_eq. destruct (first_item_ix s) as [ix|] eqn:Hf; [|auto].
  destruct (nth_error (items s) ix) as [a|] eqn:Ha; [|auto].
  destruct (is_cmd word a) eqn:Hc; [left; exists ix, a; auto|auto].
Qed.

Lemma sremove_set_current k ix s c c' :
  set_current (sremove k ix (set_current s c)) c' = set_current (sremove k ix s) c'.
Proof.
  unfold sremove. change (in_scope (set_current s c) ix) with (in_scope s ix).
  change (ist_at (set_current s c) ix) with (ist_at s ix). destruct (in_scope s ix && _); reflexivity.
Qed.

(* the names are tried in turn; a miss resets `current`, so the state is untouched only when there are no names *)
Lemma take_cmd_any_cases names s :
  (exists w ix a, In w names /\ first_item_ix s = Some ix /\ nth_error (items s) ix = Some a /\
     is_cmd w a = true /\ take_cmd_any names s = (true, set_current (sremove (KCmd w) ix s) (Some ix))) \/
  take_cmd_any names s = (false, s) \/ take_cmd_any names s = (false, set_current s None).
Proof.
  revert s. induction names as [|n t IH]; intros s; cbn [take_cmd_any]; [auto|].
  destruct (take_cmd_cases n s) as [(ix & a & Hf & Ha & Hc & ->)| ->].
  - left. exists n, ix, a. cbn. auto.
  - destruct (IH (set_current s None)) as [(w & ix & a & Hw & Hf & Ha & Hc & ->)|[->| ->]]; [left|auto|auto].
    exists w, ix, a. rewrite sremove_set_current. cbn. auto.
Qed.

Definition cmd_entered (name : bytes) (s1 : state) : option state :=
  match current s1 with
  | None => None
  | Some cur =>
    match set_scope s1 cur (sc_end s1) with
    | None => None
    | Some s2 => Some (set_path s2 (path s2 ++ [name]))
    end
  end.

Definition eres_of (r : sres) : eres :=
  match r with
  | SOk v => ROk v
  | SFail f => RErr (MsgParseFailure f)
  | SPanic w => RPanic w
  | SFuel => RFuel
  end.

Definition lift_run (x : sres * state) : eres * state := (eres_of (fst x), snd x).

(* ParseCommand::eval of an adjacent command, once entered *)
Definition cmd_adjacent (run : state -> sres * state) (s3 : state) : eres * state :=
  let '(a, b) := adjacently_available_from s3 (S (sc_start s3)) in
  match set_scope s3 a b with
  | None => (RPanic P_set_scope, s3)
  | Some s4 =>
    match run s4 with
    | (SOk v, s5) =>
      match set_scope s5 (sc_start s3) (sc_end s3) with
      | Some s6 => (ROk v, s6)
      | None => (RPanic P_set_scope, s5)
      end
    | (SFail f, s5) =>
      match adjacent_scope s5 s3 with
      | ASPanic => (RPanic P_adj_scope, s5)
      | ASNone => (RErr (MsgParseFailure f), s5)
      | ASSome na nb =>
        match set_scope s3 na nb with
        | None => (RPanic P_set_scope, s5)
        | Some o1 =>
          match run o1 with
          | (SOk res, o2) =>
            match set_scope o2 (sc_start s3) (sc_end s3) with
            | Some o3 => (ROk res, o3)
            | None => (RPanic P_set_scope, o2)
            end
          | (SFail _, _) => (RErr (MsgParseFailure f), s5)
          | (SPanic w, o2) => (RPanic w, o2)
          | (SFuel, o2) => (RFuel, o2)
          end
        end
      end
    | (SPanic w, s5) => (RPanic w, s5)
    | (SFuel, s5) => (RFuel, s5)
    end
  end.

Lemma cmd_body_eq name aliases shorts help adjacent m i run s :
  cmd_body name aliases shorts help adjacent m i run s =
  let '(hit, s1) := take_cmd_any ((name :: aliases) ++ map utf8_encode_char shorts) s in
  if hit then
    match cmd_entered name s1 with
    | None => (RPanic P_set_scope, s1)
    | Some s3 => if adjacent then cmd_adjacent run s3 else lift_run (run s3)
    end
  else (RErr (missing_msg (ICommand name (hd_error shorts) help m i) s1), s1).
Proof.
  unfold cmd_body, cmd_entered. destruct (take_cmd_any _ s) as [[|] s1]; [|reflexivity].
  destruct (current s1) as [cur|]; [|reflexivity].
  destruct (set_scope s1 cur (sc_end s1)) as [s2|]; [|reflexivity].
  destruct adjacent; [reflexivity|]. destruct (run _) as [[] s4]; reflexivity.
Qed.

Lemma cmd_entered_fields name s1 s3 :
  cmd_entered name s1 = Some s3 ->
  exists cur s2, current s1 = Some cur /\ set_scope s1 cur (sc_end s1) = Some s2 /\
                 s3 = set_path s2 (path s2 ++ [name]).
Proof.
  unfold cmd_entered. destruct (current s1) as [cur|]; [|discriminate].
  destruct (set_scope s1 cur (sc_end s1)) as [s2|] eqn:E; [|discriminate]. intros H; inv H. eauto.
Qed.

Lemma cmd_adjacent_cases run s3 :
  match cmd_adjacent run s3 with
  | (ROk v, s') =>
    exists w t, window s3 w /\ run w = (SOk v, t) /\ set_scope t (sc_start s3) (sc_end s3) = Some s'
  | (RErr e, s') => exists w f, window s3 w /\ run w = (SFail f, s') /\ e = MsgParseFailure f
  | (_, s') => s' = s3 \/ exists w, window s3 w /\ s' = snd (run w)
  end.
Proof.
  unfold cmd_adjacent. destruct (adjacently_available_from s3 (S (sc_start s3))) as [a b].
  destruct (set_scope s3 a b) as [s4|] eqn:E4; [|auto].
  assert (W4 : window s3 s4) by (exists a, b; exact E4).
  assert (S4 : forall r s5, run s4 = (r, s5) -> s5 = s3 \/ exists w, window s3 w /\ s5 = snd (run w)).
  { intros r s5 E. right. exists s4. rewrite E. auto. }
  destruct (run s4) as [[v|f|w|] s5] eqn:R4; eauto.
  - destruct (set_scope s5 _ _) eqn:E6; eauto.
  - destruct (adjacent_scope s5 s3) as [| |na nb]; eauto.
    destruct (set_scope s3 na nb) as [o1|] eqn:E7; eauto.
    assert (W7 : window s3 o1) by (exists na, nb; exact E7).
    assert (S7 : forall r o2, run o1 = (r, o2) -> o2 = s3 \/ exists w, window s3 w /\ o2 = snd (run w)).
    { intros r o2 E. right. exists o1. rewrite E. auto. }
    destruct (run o1) as [[res|f2|w|] o2] eqn:R7; eauto.
    destruct (set_scope o2 _ _) eqn:E9; eauto.
Qed.

(* what run_subparser does with an error, or with leftovers: help and version are looked for first *)
Definition run_finish (env : bytes -> option bytes) (inf : info) (m : meta) (s1 : state) (err : message)
  : sres * state :=
  match info_eval env inf s1 with
  | (Some (ExHelp detailed), s2) =>
    if invariant_ok m then (SFail (FStdout (HHelp (path s2) inf m detailed)), s2)
    else (SPanic P_invariant, s2)
  | (Some (ExVersion v), s2) => (SFail (FStdout (HVersion v)), s2)
  | (None, s2) => (SFail (FStderr err (BpafModel.Message.render_message err s2 m)), s2)
  end.

Lemma run_sub_body_eq env inf m s r s1 :
  run_sub_body env inf m s (r, s1) =
  match r with
  | RPanic w => (SPanic w, s1)
  | RFuel => (SFuel, s1)
  | ROk v =>
    match first_item_ix s1 with
    | Some ix => run_finish env inf m s1 (MsgUnconsumed ix)
    | None => (SOk v, s1)
    end
  | RErr e =>
    if match e with MsgParseFailure (FStdout _) => false | _ => true end
       && i_help_if_no_args inf && Nat.eqb (remaining s) 0
    then if invariant_ok m then (SFail (FStdout (HHelp (path s1) inf m false)), s1) else (SPanic P_invariant, s1)
    else match e with MsgParseFailure f => (SFail f, s1) | _ => run_finish env inf m s1 e end
  end.
Proof.
  destruct r; reflexivity.
Qed.

Lemma run_finish_fails env inf m s1 err v : fst (run_finish env inf m s1 err) <> SOk v.
Proof.
  unfold run_finish. destruct (info_eval env inf s1) as [[[d|ver]|] s2]; try discriminate.
  destruct (invariant_ok m); discriminate.
Qed.

Lemma run_finish_state env inf m s1 err : snd (run_finish env inf m s1 err) = snd (info_eval env inf s1).
Proof.
  unfold run_finish. destruct (info_eval env inf s1) as [[[d|ver]|] s2]; try reflexivity.
  destruct (invariant_ok m); reflexivity.
Qed.

Lemma run_sub_body_ok env inf m s r s1 v s' :
  run_sub_body env inf m s (r, s1) = (SOk v, s') ->
  r = ROk v /\ s' = s1 /\ first_item_ix s1 = None.
Proof.
  rewrite run_sub_body_eq. destruct r as [v0|e|w|]; try discriminate.
  - destruct (first_item_ix s1); [|intros H; inv H; auto].
    intros H. exfalso. eapply run_finish_fails. rewrite H. reflexivity.
  - destruct (_ && _ && _); [destruct (invariant_ok m); discriminate|].
    intros H. exfalso. destruct e; try discriminate; eapply run_finish_fails; rewrite H; reflexivity.
Qed.

Lemma run_sub_ok env q inf s v s' :
  run_sub env (Options q inf) s = (SOk v, s') ->
  eval env q s = (ROk v, s') /\ first_item_ix s' = None.
Proof.
  rewrite run_sub_eq. destruct (eval env q s) as [r s1] eqn:He. intros H.
  apply run_sub_body_ok in H. destruct H as (-> & -> & Hf). auto.
Qed.

Lemma run_sub_body_state env inf m s r s1 :
  snd (run_sub_body env inf m s (r, s1)) = s1 \/
  snd (run_sub_body env inf m s (r, s1)) = snd (info_eval env inf s1).
Proof.
  rewrite run_sub_body_eq. destruct r as [v|e|w|]; auto.
  - destruct (first_item_ix s1); [rewrite run_finish_state|]; auto.
  - destruct (_ && _ && _); [destruct (invariant_ok m); auto|].
    destruct e; auto; rewrite run_finish_state; auto.
Qed.

(* Info::eval looks for the help flag (twice: `--help --help` asks for the detailed form), then for the version flag *)
Lemma info_eval_state env i s :
  let h := fun x => snd (eval_flag env (i_help_arg i) VUnit None x) in
  let v := fun x => snd (eval_flag env (i_version_arg i) VUnit None x) in
  snd (info_eval env i s) = h s \/ snd (info_eval env i s) = h (h s) \/ snd (info_eval env i s) = v (h s).
Proof.
  cbv zeta. unfold info_eval. destruct (eval_flag env (i_help_arg i) VUnit None s) as [r1 s1]. cbn [snd].
  destruct r1; [destruct (eval_flag env (i_help_arg i) VUnit None s1) as [[] s2]; auto|..];
    (destruct (i_version i); [destruct (eval_flag env (i_version_arg i) VUnit None s1) as [[] s2]|]; auto).
Qed.
