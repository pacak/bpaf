(* Reach.v -- the ledger moves only by legal steps.
   `step K` lists the primitive ways a State changes (remove a live in-scope item that the
   consumer accepts -- the consumer kind being one allowed by K --, change `current`/`path`,
   re-scope, mark conflicts); `reach K` is its reflexive-transitive closure.
   Main theorem (eval_reach_all, with projections eval_reach / run_sub_reach): for every parser whose consumers all satisfy K, the state left
   behind by `eval` (and by run_subparser) is reachable from the input state, whatever the
   nesting, rollbacks and retries.  Every ledger invariant preserved by `step` therefore holds
   after any evaluation (reach_inv).
   Cases.v and Closure.v are exported from here: whoever speaks of `reach` argues with them. *)
From BpafLemmas Require Import Tac Find.
From BpafLemmas Require Export Cases Closure.

(* which token shapes a consumer may claim *)
Definition accepts (k : ckind) (a : arg) : bool :=
  match k with
  | KFlag n => matches_arg n false a
  | KArgKey n => matches_arg n false a
  | KArgVal _ => match a with Word _ | ArgWord _ => true | _ => false end
  | KPos => match a with Word _ | PosWord _ => true | _ => false end
  | KCmd name =>
    match a with
    | Word w | Short _ _ w | Long _ false w => beqb w name
    | _ => false
    end
  | KAny => true
  | KTok => false
  end.

Lemma accepts_KCmd w a : accepts (KCmd w) a = is_cmd w a.
Proof. reflexivity. Qed.

Section Reach.
Variable K : ckind -> Prop.

Inductive step : state -> state -> Prop :=
| StRemove k ix s st :
    K k ->
    in_scope s ix = true -> ist_at s ix = Some st -> present st = true ->
    (forall a, nth_error (items s) ix = Some a -> accepts k a = true) ->
    step s (sremove k ix s)
| StCurrent s c : step s (set_current s c)
| StPath s p : step s (set_path s p)
| StScope s a b s' : set_scope s a b = Some s' -> step s s'
| StMarks s ist' :
    length ist' = length (ist s) ->
    (forall i, option_map present (nth_error ist' i) = option_map present (nth_error (ist s) i)) ->
    (* a conflict mark names a position of the line as the winner, or was there before *)
    (forall i w, nth_error ist' i = Some (Conflict w) -> w < length ist' \/ nth_error (ist s) i = Some (Conflict w)) ->
    step s (set_ist s ist').

Inductive reach : state -> state -> Prop :=
| reach_refl s : reach s s
| reach_more s1 s2 s3 : reach s1 s2 -> step s2 s3 -> reach s1 s3.

Lemma reach_trans s1 s2 s3 : reach s1 s2 -> reach s2 s3 -> reach s1 s3.
Proof. intros H12 H23. induction H23; eauto using reach. Qed.

Lemma reach_one s1 s2 : step s1 s2 -> reach s1 s2.
Proof. eauto using reach. Qed.

Lemma reach_inv (I : state -> Prop) :
  (forall s s', step s s' -> I s -> I s') -> forall s s', reach s s' -> I s -> I s'.
Proof. intros H s s' R. induction R; eauto. Qed.

Lemma reach_current s c : reach s (set_current s c).
Proof. apply reach_one. constructor. Qed.
Lemma reach_path s p : reach s (set_path s p).
Proof. apply reach_one. constructor. Qed.
Lemma reach_scope s a b s' : set_scope s a b = Some s' -> reach s s'.
Proof. intros H. apply reach_one. econstructor; eauto. Qed.

Lemma reach_sremove k ix s :
  K k -> (forall a, nth_error (items s) ix = Some a -> accepts k a = true) ->
  reach s (sremove k ix s).
Proof.
  intros Hk Hacc.
  destruct (in_scope s ix) eqn:Hin; [|unfold sremove; rewrite Hin; constructor].
  destruct (ist_at s ix) as [st|] eqn:Hst;
    [|unfold sremove; rewrite Hin, Hst; constructor].
  destruct (present st) eqn:Hp; [|unfold sremove; rewrite Hin, Hst, Hp; constructor].
  apply reach_one. eapply StRemove; eauto.
Qed.

Lemma reach_found k s f ix :
  K k -> find_item s f = Some ix -> (forall a, f ix a = true -> accepts k a = true) ->
  reach s (sremove k ix s).
Proof.
  intros Hk Hf Hacc. apply find_item_some in Hf. destruct Hf as (_ & a & _ & Ha & _ & _ & Hm).
  apply reach_sremove; [exact Hk|]. intros a' Ha'. rewrite Ha in Ha'. inv Ha'. auto.
Qed.

Lemma take_flag_reach n s s' : K (KFlag n) -> take_flag n s = Some s' -> reach s s'.
Proof.
  intros Hk. unfold take_flag. destruct (find_item s _) as [ix|] eqn:Hf; [|discriminate].
  intros H; inv H. eapply reach_found; eauto.
Qed.

Lemma matches_arg_weaken n adj a : matches_arg n adj a = true -> matches_arg n false a = true.
Proof.
  destruct a; cbn; try discriminate; intros H; apply andb_prop in H; destruct H as [H _];
    rewrite H; reflexivity.
Qed.

Lemma take_arg_reach n adj s w s' :
  K (KArgKey n) -> K (KArgVal n) -> take_arg n adj s = TASome w s' -> reach s s'.
Proof.
  intros Hk1 Hk2. unfold take_arg. destruct (find_item s _) as [key|] eqn:Hf; [|discriminate].
  destruct (get s (S key)) as [va|] eqn:Hg; [|discriminate].
  apply get_some in Hg. destruct Hg as (_ & Hva & _).
  assert (Hgo : accepts (KArgVal n) va = true ->
                reach s (sremove (KArgVal n) (S key) (sremove (KArgKey n) key s))).
  { intros Hw. eapply reach_trans.
    - apply (reach_found (KArgKey n) s _ key Hk1 Hf). intros a. apply matches_arg_weaken.
    - apply reach_sremove; [exact Hk2|]. intros a' Ha'. rewrite sremove_items, Hva in Ha'. inv Ha'. exact Hw. }
  destruct va; try discriminate; intros H; inv H; apply Hgo; reflexivity.
Qed.

Lemma take_positional_reach s ix strict w s' :
  K KPos -> take_positional_word s = Some (ix, strict, w, s') -> reach s s'.
Proof.
  intros Hk. unfold take_positional_word. destruct (find_item s _) as [i|] eqn:Hf; [|discriminate].
  assert (R : reach s (sremove KPos i s)) by (eapply reach_found; eauto).
  destruct (nth_error (items s) i) as [[]|]; try discriminate; intros H; inv H; exact R.
Qed.

Lemma take_cmd_any_reach names s :
  (forall w, In w names -> K (KCmd w)) -> reach s (snd (take_cmd_any names s)).
Proof.
  intros Hk. destruct (take_cmd_any_cases names s) as [(w & ix & a & Hw & _ & Ha & Hc & ->)|[-> | ->]]; cbn [snd];
    [|constructor|apply reach_current].
  eapply reach_trans; [|apply reach_current].
  apply reach_sremove; [auto|]. intros a' Ha'. rewrite Ha in Ha'. inv Ha'. rewrite accepts_KCmd. exact Hc.
Qed.

Lemma save_conflicts_reach s loser win : win < length (ist s) -> reach s (save_conflicts s loser win).
Proof.
  intros Hw. apply reach_one. unfold save_conflicts. apply StMarks.
  - apply save_conflicts_go_length.
  - intros i. apply save_conflicts_go_present.
  - intros i w H. apply save_conflicts_go_conflict in H. destruct H as [->|H]; [left|right; exact H].
    rewrite save_conflicts_go_length. exact Hw.
Qed.

Lemma reach_rel : rel_ok reach.
Proof.
  split; [apply reach_refl|apply reach_trans|apply reach_current|].
  intros s x loser w H Hw. eapply reach_trans; [exact H|apply save_conflicts_reach; exact Hw].
Qed.

Definition ev_reach (ev : evaluator) : Prop := forall s, reach s (snd (ev s)).
Definition run_reach (run : state -> sres * state) : Prop := forall s, reach s (snd (run s)).

Lemma ev_reach_respects : ev_reach = respects reach.
Proof. reflexivity. Qed.
Lemma run_reach_respects : run_reach = respects_run reach.
Proof. reflexivity. Qed.

Section WithEnv.
Variable env : bytes -> option bytes.

Lemma eval_flag_reach n p a : K (KFlag n) -> ev_reach (eval_flag env n p a).
Proof.
  intros Hk s. unfold eval_flag.
  destruct (take_flag n s) as [s'|] eqn:Ht; [eapply take_flag_reach; eauto|].
  destruct (env_first env (n_env n)); [constructor|]. destruct a; [constructor|].
  destruct (flag_item n); [constructor|]. destruct (n_env n); constructor.
Qed.

Lemma eval_arg_reach n mv ty adj :
  K (KArgKey n) -> K (KArgVal n) -> ev_reach (eval_arg env n mv ty adj).
Proof.
  intros Hk1 Hk2 s. unfold eval_arg.
  destruct (take_arg n adj s) as [|k|w s'] eqn:Ht.
  - destruct (env_first env (n_env n)); [rewrite convert_res_snd; apply reach_current|].
    destruct (arg_item n mv); [constructor|]. destruct (n_env n); constructor.
  - constructor.
  - rewrite convert_res_snd. eapply take_arg_reach; eauto.
Qed.

Lemma eval_pos_reach mv ty pos help : K KPos -> ev_reach (eval_pos mv ty pos help).
Proof.
  intros Hk s. unfold eval_pos.
  destruct (take_positional_word s) as [[[[ix st] w] s']|] eqn:Ht; [|cbn; constructor].
  apply take_positional_reach in Ht; [|exact Hk].
  destruct pos, st; cbn; try rewrite convert_res_snd; exact Ht.
Qed.

Lemma eval_any_reach mv help check anywhere : K KAny -> ev_reach (eval_any mv help check anywhere).
Proof.
  intros Hk s. unfold eval_any.
  match goal with |- context [match ?f with Some _ => _ | None => _ end] =>
                  destruct f as [ix|] eqn:Hfound end; [|cbn; constructor].
  destruct (nth_error (items s) ix) as [a|] eqn:Ha; [|cbn; constructor].
  destruct (check (arg_os a)) as [v|] eqn:Hc; [|cbn; constructor].
  cbn [snd].
  assert (H1 : reach s (sremove KAny ix s)) by (apply reach_sremove; auto).
  match goal with |- context [if ?b then _ else _] => destruct b end; [|exact H1].
  eapply reach_trans; [exact H1|]. apply reach_sremove; auto.
Qed.

Lemma or_reach eva evb : ev_reach eva -> ev_reach evb -> ev_reach (or_body eva evb).
Proof. rewrite ev_reach_respects. apply or_rel, reach_rel. Qed.

Lemma con_reach ff evs : Forall ev_reach evs -> ev_reach (con_body ff evs).
Proof. rewrite ev_reach_respects. apply con_rel, reach_rel. Qed.

Lemma adjacent_reach ev fi : ev_reach ev -> ev_reach (eval_adjacent ev fi).
Proof. rewrite ev_reach_respects. apply (adjacent_rel reach reach_rel reach_scope). Qed.

Lemma cmd_reach name aliases shorts help adjacent m_sub i_sub run :
  (forall w, In w ((name :: aliases) ++ map utf8_encode_char shorts) -> K (KCmd w)) ->
  run_reach run ->
  ev_reach (cmd_body name aliases shorts help adjacent m_sub i_sub run).
Proof.
  intros Hk. rewrite ev_reach_respects, run_reach_respects. apply (cmd_rel reach reach_rel reach_scope reach_path).
  intros s. apply take_cmd_any_reach. exact Hk.
Qed.

Lemma info_eval_reach i s :
  K (KFlag (i_help_arg i)) -> K (KFlag (i_version_arg i)) -> reach s (snd (info_eval env i s)).
Proof.
  intros Hh Hv. apply (info_eval_rel reach reach_rel); rewrite <- ev_reach_respects; apply eval_flag_reach; assumption.
Qed.

Lemma run_sub_body_reach inf m s res :
  K (KFlag (i_help_arg inf)) -> K (KFlag (i_version_arg inf)) ->
  reach s (snd res) -> reach s (snd (run_sub_body env inf m s res)).
Proof.
  intros Hh Hv. apply (run_sub_body_rel reach reach_rel); rewrite <- ev_reach_respects; apply eval_flag_reach; assumption.
Qed.

End WithEnv.
End Reach.

Fixpoint kinds_ok (K : ckind -> Prop) (p : parser) {struct p} : Prop :=
  match p with
  | PFlag n _ _ => K (KFlag n)
  | PArg n _ _ _ => K (KArgKey n) /\ K (KArgVal n)
  | PPos _ _ _ _ => K KPos
  | PAny _ _ _ _ => K KAny
  | PCmd name aliases shorts _ _ sub =>
    (forall w, In w ((name :: aliases) ++ map utf8_encode_char shorts) -> K (KCmd w)) /\
    okinds_ok K sub
  | PCon fields | PAdj fields => lkinds_ok K fields
  | POr a b => kinds_ok K a /\ kinds_ok K b
  | POptional q _ | PMany q _ | PSome q _ _ | PCollect q _ | PCount q | PLast q
  | PFallback q _ _ | PFallbackWith q _ _ | PGuard q _ _ | PParse q _ | PMap q _
  | PHide q | PUsage q _ | PGroupHelp q _ | PBoxed q => kinds_ok K q
  | PPure _ | PPureWith _ | PFail _ => True
  end
with lkinds_ok (K : ckind -> Prop) (ps : plist) {struct ps} : Prop :=
  match ps with
  | PNil => True
  | PCons q t => kinds_ok K q /\ lkinds_ok K t
  end
with okinds_ok (K : ckind -> Prop) (o : oparser) {struct o} : Prop :=
  match o with
  | Options q inf => K (KFlag (i_help_arg inf)) /\ K (KFlag (i_version_arg inf)) /\ kinds_ok K q
  end.

Lemma kinds_ok_every K :
  (forall p, kinds_ok K p -> every (kinds_ok K) (okinds_ok K) p) /\
  (forall ps, lkinds_ok K ps -> every_l (kinds_ok K) (okinds_ok K) ps) /\
  (forall o, okinds_ok K o -> every_o (kinds_ok K) (okinds_ok K) o).
Proof. apply parser_plist_oparser_ind; cbn [kinds_ok lkinds_ok okinds_ok every every_l every_o]; auto; tauto. Qed.

Lemma kinds_ok_true :
  (forall p, kinds_ok (fun _ => True) p) /\ (forall ps, lkinds_ok (fun _ => True) ps) /\
  (forall o, okinds_ok (fun _ => True) o).
Proof. apply parser_plist_oparser_ind; intros; cbn [kinds_ok lkinds_ok okinds_ok]; tauto. Qed.

Definition reach_any := reach (fun _ => True).

Theorem eval_reach_all K env :
  (forall p, kinds_ok K p -> ev_reach K (eval env p)) /\
  (forall ps, lkinds_ok K ps -> Forall (ev_reach K) (evals env ps)) /\
  (forall o, okinds_ok K o -> run_reach K (run_sub env o)).
Proof.
  destruct (kinds_ok_every K) as (Ep & El & Eo). rewrite ev_reach_respects, run_reach_respects.
  destruct (eval_respects (reach K) (reach_rel K) env (kinds_ok K) (okinds_ok K)) as (Hp & Hl & Ho);
    rewrite <- ?ev_reach_respects, <- ?run_reach_respects.
  - intros n p a. apply eval_flag_reach.
  - intros n mv ty adj [H1 H2]. apply eval_arg_reach; assumption.
  - intros mv ty pos help. apply eval_pos_reach.
  - intros mv help check anywhere. apply eval_any_reach.
  - intros name aliases shorts help adjacent sub [Hk _]. apply cmd_reach. exact Hk.
  - intros fields _ H. apply adjacent_reach. apply con_reach. exact H.
  - intros q inf (Hh & Hv & _) H s. rewrite run_sub_eq. apply run_sub_body_reach; auto.
  - split; [|split]; intros x Hx; [apply Hp|apply Hl|apply Ho]; auto.
Qed.

Definition eval_reach K env := proj1 (eval_reach_all K env).
Definition run_sub_reach K env := proj2 (proj2 (eval_reach_all K env)).

Lemma eval_reach_any env p s : reach_any s (snd (eval env p s)).
Proof. apply eval_reach. apply kinds_ok_true. Qed.
Lemma evals_reach_any env ps : Forall (ev_reach (fun _ => True)) (evals env ps).
Proof. apply eval_reach_all. apply kinds_ok_true. Qed.
Lemma run_sub_reach_any env o s : reach_any s (snd (run_sub env o s)).
Proof. apply run_sub_reach. apply kinds_ok_true. Qed.
