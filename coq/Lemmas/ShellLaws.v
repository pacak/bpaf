(* ShellLaws.v -- completion scripts (C15) and name filters (C14): single-quote escaping round-trips
   through a POSIX word lexer; what the bash and zsh renderers print is newline-terminated, holds
   every requested shell completer, and echoes the typed word quoted when nothing matches; the
   completion name filters are sound. *)
From BpafModel Require Import Shell.
From BpafLemmas Require Import ConsoleLaws.
Import ListNotations.

(* A lexer for ONE shell word that consists only of data: single-quoted segments and `\c` escapes.
   Any unquoted, unescaped character -- a space, `$`, `;`, `(`, a newline ... -- makes it fail, so
   `unquote w = Some s` says both "the shell reads w as the single word s" and "nothing in w is
   interpreted". *)
Fixpoint unq_go (inq : bool) (s : str) (acc : str) {struct s} : option str :=
  match s with
  | [] => if inq then None else Some (rev acc)
  | c :: t =>
    if inq then (if (c =? q)%N then unq_go false t acc else unq_go true t (c :: acc))
    else if (c =? q)%N then unq_go true t acc
    else if (c =? bsl)%N then match t with d :: t' => unq_go false t' (d :: acc) | [] => None end
    else None
  end.
Definition unquote (w : str) : option str := unq_go false w [].

Lemma unq_inside s rest acc :
  unq_go true (flat_map quote_char s ++ rest) acc = unq_go true rest (rev s ++ acc).
Proof.
  revert acc. induction s as [|c s IH]; intros acc; cbn [flat_map app rev]; [reflexivity|].
  unfold quote_char at 1. destruct (c =? q)%N eqn:E.
  - apply N.eqb_eq in E. subst c. cbn [app unq_go].
    change ((q =? q)%N) with true. change ((bsl =? q)%N) with false. change ((bsl =? bsl)%N) with true.
    cbn match. rewrite IH. rewrite <- app_assoc. reflexivity.
  - cbn [app unq_go]. rewrite E. rewrite IH. rewrite <- app_assoc. reflexivity.
Qed.

(* C15 quote round-trip: for EVERY string -- quotes, `$()`, `;`, newlines, spaces, non-ASCII -- the
   shell reads the quoted form back as exactly that string, and interprets nothing *)
Theorem quote_roundtrip s : unquote (quote s) = Some s.
Proof.
  unfold unquote, quote. cbn [unq_go]. change ((q =? q)%N) with true. cbn match.
  rewrite unq_inside. cbn [unq_go]. change ((q =? q)%N) with true. cbn match.
  rewrite app_nil_r, rev_involutive. reflexivity.
Qed.

Theorem quote_injective a b : quote a = quote b -> a = b.
Proof.
  intros H. pose proof (quote_roundtrip a) as Ha. rewrite H in Ha. rewrite quote_roundtrip in Ha.
  congruence.
Qed.

Definition nl_terminated (s : str) : Prop := s = [] \/ exists p, s = p ++ [nl].

Lemma nlt_line s : nl_terminated (line s).
Proof. right. exists s. reflexivity. Qed.

Local Opaque line.

Lemma nlt_app a b : nl_terminated a -> nl_terminated b -> nl_terminated (a ++ b).
Proof.
  intros [->|[p ->]] [->|[r ->]]; cbn.
  - left. reflexivity.
  - right. exists r. reflexivity.
  - right. exists p. rewrite app_nil_r. reflexivity.
  - right. exists (p ++ [nl] ++ r). rewrite <- !app_assoc. reflexivity.
Qed.

Lemma nlt_flat_map {A} (f : A -> str) l : (forall x, nl_terminated (f x)) -> nl_terminated (flat_map f l).
Proof.
  intros H. induction l as [|x l IH]; cbn; [left; reflexivity|]. apply nlt_app; auto.
Qed.

Lemma nlt_nil : nl_terminated [].
Proof. left. reflexivity. Qed.

#[local] Hint Resolve nlt_line nlt_nil nlt_app nlt_flat_map : nlt.

Lemma nlt_zsh_op o : nl_terminated (zsh_op o).
Proof. destruct o as [[m|]|[m|]|b z f e|]; cbn [zsh_op]; auto with nlt. Qed.
Lemma nlt_bash_op o : nl_terminated (bash_op o).
Proof. destruct o as [[m|]|[m|]|b z f e|]; cbn [bash_op]; auto with nlt. Qed.
Lemma nlt_zsh_item i : nl_terminated (zsh_item i).
Proof. unfold zsh_item. destruct (sc_group i); auto with nlt. Qed.

Lemma nlt_bash_items prev items : nl_terminated (bash_items prev items).
Proof.
  revert prev. induction items as [|i t IH]; intros prev; cbn [bash_items]; [apply nlt_nil|].
  destruct (sc_group i) as [g|]; [destruct (match prev with Some p => beqb p g | None => is_nil g end)|];
    cbv beta iota zeta; auto 6 with nlt.
Qed.

#[local] Hint Resolve nlt_zsh_op nlt_bash_op nlt_zsh_item nlt_bash_items : nlt.

(* every directive of the bash and zsh scripts is terminated by a newline: nothing is glued *)
Theorem render_zsh_lines items ops l : nl_terminated (render_zsh items ops l).
Proof.
  unfold render_zsh. destruct (is_nil items && is_nil ops); [apply nlt_line|].
  destruct items as [|i [|j t]]; [|destruct (is_nil (sc_subst i))|]; auto 6 with nlt.
Qed.

Theorem render_bash_lines items ops l : nl_terminated (render_bash items ops l).
Proof.
  unfold render_bash. destruct (is_nil items && is_nil ops); [apply nlt_line|].
  destruct items as [|i [|j t]]; [auto 6 with nlt| |auto 6 with nlt].
  destruct (is_nil (sc_subst i)); [auto with nlt|].
  (* a single candidate with a substitution: its line is followed by an empty one *)
  apply nlt_app; [auto with nlt|]. apply nlt_app; [apply nlt_line|]. right. exists []. reflexivity.
Qed.

(* every requested shell completer is rendered, whatever the number of candidates *)
Theorem render_zsh_keeps_ops items ops l :
  (is_nil items && is_nil ops = false) ->
  exists rest, render_zsh items ops l = flat_map zsh_op ops ++ rest.
Proof.
  intros H. unfold render_zsh. rewrite H. destruct items as [|i [|j t]]; eauto.
  destruct (is_nil (sc_subst i)); eauto.
Qed.

Theorem render_bash_keeps_ops items ops l :
  (is_nil items && is_nil ops = false) ->
  exists rest, render_bash items ops l = flat_map bash_op ops ++ rest.
Proof.
  intros H. unfold render_bash. rewrite H. destruct items as [|i [|j t]]; eauto.
  destruct (is_nil (sc_subst i)); eauto.
Qed.

(* the typed word is echoed back QUOTED when nothing matches *)
Local Transparent line.
Theorem render_zsh_nothing l : render_zsh [] [] l = line (s_compadd_dd ++ quote l).
Proof. reflexivity. Qed.
Theorem render_bash_nothing l : render_bash [] [] l = line (s_compreply_open ++ quote l ++ [rparen]).
Proof. reflexivity. Qed.

(* C14: the name filters of src/complete_gen.rs *)
Theorem arg_matches_sound arg short long n :
  arg_matches arg short long = Some n ->
  n = preferred_name short long /\
  (arg = [] \/ arg = [dash] \/
   (exists c, short = Some c /\ arg = [dash; c]) \/
   (exists l rest, long = Some l /\ arg = dash :: dash :: rest /\ starts_with rest l = true)).
Proof.
  unfold arg_matches.
  destruct (is_nil arg) eqn:En.
  - destruct arg; [|discriminate]. cbn. intros H; inversion H. auto.
  - cbn [orb]. destruct (beqb arg [dash]) eqn:Ed.
    + apply beqb_eq in Ed. intros H; inversion H. auto.
    + destruct (_ || _) eqn:E; [|discriminate]. intros H; inversion H. split; [reflexivity|].
      right. right. apply orb_prop in E. destruct E as [E|E].
      * left. destruct short as [c|]; [|discriminate]. apply beqb_eq in E. eauto.
      * right. destruct long as [l|]; [|discriminate].
        destruct arg as [|a [|b rest]]; try discriminate E.
        apply andb_prop in E. destruct E as [E E3]. apply andb_prop in E. destruct E as [E1 E2].
        apply N.eqb_eq in E1. apply N.eqb_eq in E2. subst. exists l, rest. auto.
Qed.

Theorem cmd_matches_sound arg name short :
  cmd_matches arg name short = true ->
  starts_with arg name = true \/ exists c, short = Some c /\ arg = [c].
Proof.
  unfold cmd_matches. intros H. apply orb_prop in H. destruct H as [H|H]; [auto|].
  right. destruct short as [c|]; [|discriminate]. apply beqb_eq in H. eauto.
Qed.
