(* CompPres.v -- what every combinator body of the autocomplete build keeps while a completion request is on:
   the request with its revision and the items of the line (`xinv`), and a predicate C on every hint in hand.
   `pres` is said with one occurrence of `cev x`, so that a body is walked through once.  The induction over the parser
   is CompVisible.ceval_pres_all, because its hypothesis speaks of the parser's visible names. *)
From BpafLemmas Require Import Reach CompAlways.
From BpafModel Require Import Message CompEval.

(* C survives what the bodies do to hints by themselves: a group's title, and the hints that carry no name *)
Definition hint_closed (C : comp -> Prop) : Prop :=
  (forall g c, C c -> C (set_group g c)) /\ (forall e b a, C (CoValue e b a)) /\
  (forall e m a, C (CoMeta e m a)) /\ (forall e o a, C (CoShell e o a)).

(* R judges the results of parsers, Q those of command levels *)
Definition judges_results (R : eres -> Prop) : Prop :=
  (forall r, plain r -> R r) /\ (forall a b, R (RErr a) -> R (RErr b) -> R (RErr (combine_with a b))).
Definition judges (rv : nat) (its : list arg) (R : eres -> Prop) (Q : sres -> Prop) : Prop :=
  judges_results R /\
  (forall f, Q (SFail f) -> R (RErr (MsgParseFailure f))) /\
  (forall env inf m x r s1 c1,
     xinv rv its (s1, Some c1) -> R r -> Q (fst (c_run_sub_body env inf m x (r, (s1, Some c1))))).

Lemma judges_top rv its : judges rv its (fun _ => True) (fun _ => True).
Proof. repeat split. Qed.

Section Pres.
Variable rv : nat.
Variable its : list arg.
Variable R : eres -> Prop.
Hypothesis HR : judges_results R.

Lemma R_plain r : plain r -> R r.
Proof. exact (proj1 HR r). Qed.
Lemma R_combine a b : R (RErr a) -> R (RErr b) -> R (RErr (combine_with a b)).
Proof. exact (proj2 HR a b). Qed.

Definition hinv (C : comp -> Prop) (x : xst) : Prop := xinv rv its x /\ Forall C (kcomps (snd x)).
Definition pres (C : comp -> Prop) (cev : xevaluator) : Prop :=
  forall x, hinv C x -> let '(r, x') := cev x in hinv C x' /\ R r.

Lemma hinv_mk C s k : items s = its -> krev k = Some rv -> Forall C (kcomps k) -> hinv C (s, k).
Proof. intros Hi Hk Hc. split; [split|]; assumption. Qed.
Lemma hinv_ledger C s k s' : hinv C (s, k) -> items s' = items s -> hinv C (s', k).
Proof. intros [[Hi Hk] Hc] E. apply hinv_mk; [rewrite E; exact Hi|exact Hk|exact Hc]. Qed.
Lemma hinv_scope C s k a b s' : hinv C (s, k) -> set_scope s a b = Some s' -> hinv C (s', k).
Proof. intros H E. exact (hinv_ledger C s k s' H (proj1 (set_scope_fields _ _ _ _ E))). Qed.
Lemma hinv_current C x v : hinv C x -> hinv C (xset_current x v).
Proof. intros [[Hi Hk] Hc]. split; [split|]; assumption. Qed.

Lemma R_ok v : R (ROk v).
Proof. apply R_plain, plain_ok. Qed.
Lemma R_panic w : R (RPanic w).
Proof. apply R_plain, plain_panic. Qed.
Lemma R_fuel : R RFuel.
Proof. apply R_plain, plain_fuel. Qed.
Lemma R_err m : not_failure m -> R (RErr m).
Proof. intros H. apply R_plain, plain_err, H. Qed.
Hint Resolve R_ok R_panic R_fuel : core.

Lemma leaf_pres C (cev : xevaluator) (ev : evaluator) :
  ev_reach (fun _ => True) ev -> (forall s, plain (fst (ev s))) ->
  (forall s k, exists k', cev (s, k) = (fst (ev s), (snd (ev s), k')) /\ kgrow C k k') -> pres C cev.
Proof.
  intros Hre Hpl Hsp [s k] [[Hi Hk] Hc]. cbn [fst snd] in *. destruct (Hsp s k) as [k' [-> [Gk Gc]]].
  split; [|apply R_plain, Hpl]. apply hinv_mk; [rewrite (ev_reach_items ev s Hre); exact Hi|rewrite Gk; exact Hk|exact (Gc Hc)].
Qed.

Definition opt_pres (o : opt_res) : Prop := match o with OErr e => R (RErr e) | _ => True end.

Lemma parse_option_pres C cev len x c :
  pres C cev -> hinv C x -> let '(o, _, x') := c_parse_option cev len x c in hinv C x' /\ opt_pres o.
Proof.
  intros H Hx. unfold c_parse_option. specialize (H x Hx).
  destruct (cev x) as [[v|e|w|] [s' k']]; destruct H as [Hx' Hr].
  - destruct (lt_len (remaining s') len); split; try exact Hx'; exact I.
  - destruct (c || _ || _); [|split; [exact Hx'|exact Hr]].
    (* caught: the ledger of before comes back, the hints of after stay *)
    split; [|exact I]. destruct Hx as [[Hi _] _]. destruct Hx' as [[_ Hk'] Hc']. cbn [fst snd] in *.
    destruct k' as [c'|]; [|discriminate]. apply hinv_mk; assumption.
  - split; [exact Hx'|exact I].
  - split; [exact Hx'|exact I].
Qed.

Lemma many_loop_pres C cev c fuel len x acc :
  pres C cev -> hinv C x -> let '(r, _, x') := c_many_loop cev c fuel len x acc in hinv C x' /\ R r.
Proof.
  intros H. revert len x acc. induction fuel as [|f IH]; intros len x acc Hx; cbn [c_many_loop]; [split; auto|].
  pose proof (parse_option_pres C cev len x c H Hx) as Ho.
  destruct (c_parse_option cev len x c) as [[[] l] x']; destruct Ho as [Hx' Ho]; try (split; auto; fail).
  apply IH, Hx'.
Qed.

Lemma count_loop_pres C cev fuel len x cur n last :
  pres C cev -> hinv C x -> let '(r, _, _, x') := c_count_loop cev fuel len x cur n last in hinv C x' /\ R r.
Proof.
  intros H. revert len x cur n last. induction fuel as [|f IH]; intros len x cur n last Hx; cbn [c_count_loop]; [split; auto|].
  pose proof (parse_option_pres C cev len x false H Hx) as Ho.
  destruct (c_parse_option cev len x false) as [[[] l] x']; destruct Ho as [Hx' Ho]; try (split; auto; fail).
  destruct (Nat.eqb cur (remaining (fst x'))); [split; auto|apply IH, Hx'].
Qed.

Lemma optional_pres C cev c : pres C cev -> pres C (c_optional_body cev c).
Proof.
  intros H x Hx. unfold c_optional_body. pose proof (parse_option_pres C cev None x c H Hx) as Ho.
  destruct (c_parse_option cev None x c) as [[[] l] x']; destruct Ho as [Hx' Ho]; split; auto.
Qed.
Lemma many_pres C cev c : pres C cev -> pres C (c_many_body cev c).
Proof.
  intros H x Hx. unfold c_many_body. pose proof (many_loop_pres C cev c (loop_fuel (fst x)) None x [] H Hx) as Hl.
  destruct (c_many_loop cev c (loop_fuel (fst x)) None x []) as [[[] acc] x']; try exact Hl.
  destruct Hl as [Hx' _]. split; auto.
Qed.
Lemma some_pres C cev m c : pres C cev -> pres C (c_some_body cev m c).
Proof.
  intros H x Hx. unfold c_some_body. pose proof (many_loop_pres C cev c (loop_fuel (fst x)) None x [] H Hx) as Hl.
  destruct (c_many_loop cev c (loop_fuel (fst x)) None x []) as [[[] acc] x']; try exact Hl.
  destruct Hl as [Hx' _]. destruct acc; split; auto. apply R_err. discriminate.
Qed.
Lemma count_pres C cev : pres C cev -> pres C (c_count_body cev).
Proof.
  intros H x Hx. unfold c_count_body.
  pose proof (count_loop_pres C cev (loop_fuel (fst x)) None x (remaining (fst x)) 0 None H Hx) as Hl.
  destruct (c_count_loop cev (loop_fuel (fst x)) None x (remaining (fst x)) 0 None) as [[[[] n] l] x']; try exact Hl.
  destruct Hl as [Hx' _]. split; auto.
Qed.
Lemma last_pres C cev : pres C cev -> pres C (c_last_body cev).
Proof.
  intros H x Hx. unfold c_last_body.
  pose proof (count_loop_pres C cev (loop_fuel (fst x)) None x (remaining (fst x)) 0 None H Hx) as Hl.
  destruct (c_count_loop cev (loop_fuel (fst x)) None x (remaining (fst x)) 0 None) as [[[[] n] l] x']; try exact Hl.
  destruct Hl as [Hx' _]. destruct l; [split; auto|apply H, Hx'].
Qed.

Lemma fallback_with_pres C cev fb : pres C cev -> pres C (c_fallback_with_body cev fb).
Proof.
  intros H x Hx. unfold c_fallback_with_body. specialize (H x Hx).
  destruct (cev x) as [[v|e|w|] [s' k']]; try exact H. destruct H as [Hx' Hr].
  assert (Hx2 : hinv C (fst x, k')).
  { destruct Hx as [[Hi _] _]. destruct Hx' as [[_ Hk'] Hc']. apply hinv_mk; assumption. }
  destruct (can_catch e); [destruct fb|]; split; auto. apply R_err. discriminate.
Qed.
Lemma guard_pres C cev c m : pres C cev -> pres C (c_guard_body cev c m).
Proof.
  intros H x Hx. unfold c_guard_body. specialize (H x Hx).
  destruct (cev x) as [[v|e|w|] x']; try exact H. destruct H as [Hx' _].
  destruct (c v); split; auto. apply R_err. discriminate.
Qed.
Lemma parse_pres C cev f : pres C cev -> pres C (c_parse_body cev f).
Proof.
  intros H x Hx. unfold c_parse_body. specialize (H x Hx).
  destruct (cev x) as [[v|e|w|] x']; try exact H. destruct H as [Hx' _].
  destruct (f v); split; auto. apply R_err. discriminate.
Qed.
Lemma map_pres C cev f : pres C cev -> pres C (c_map_body cev f).
Proof.
  intros H x Hx. unfold c_map_body. specialize (H x Hx).
  destruct (cev x) as [[v|e|w|] x']; try exact H. destruct H as [Hx' _]. split; auto.
Qed.

(* State::swap_comps_with around the inner parser: the hints in hand are set aside (`snd (kswap k [])`) and come back
   afterwards; the inner parser's are handed over separately *)
Lemma aside_pres C D cev s k :
  pres D cev -> hinv C (s, k) ->
  let '(r, (s', k')) := cev (s, fst (kswap k [])) in
  let back := kswap k' (snd (kswap k [])) in
  hinv C (s', fst back) /\ Forall D (snd back) /\ R r.
Proof.
  intros H [[Hi Hk] Hc]. cbn [fst snd] in *.
  assert (H0 : hinv D (s, fst (kswap k []))).
  { apply hinv_mk; [exact Hi|rewrite krev_kswap; exact Hk|apply hints_kswap_fst; constructor]. }
  specialize (H _ H0). destruct (cev (s, fst (kswap k []))) as [r [s' k']]. destruct H as [[[Hi' Hk'] Hc'] Hr].
  cbn [fst snd] in *. destruct k' as [c'|]; [|discriminate]. split; [|split; [exact Hc'|exact Hr]].
  apply hinv_mk; [exact Hi'|exact Hk'|]. apply (hints_kswap_snd C k []); [exact Hc|constructor].
Qed.

Lemma hide_pres C cev : pres (fun _ => True) cev -> pres C (c_hide_body cev).
Proof.
  intros H [s k] Hx. unfold c_hide_body. rewrite (surjective_pairing (kswap k [])).
  pose proof (aside_pres C _ cev s k H Hx) as Ha.
  destruct (cev (s, fst (kswap k []))) as [r [s' k']]. destruct Ha as (Hx1 & _ & Hr).
  destruct r as [v|[]|w|]; split; try exact Hx1; try exact Hr. apply R_err. discriminate.
Qed.

Lemma group_help_pres C docgen cev d : hint_closed C -> pres C cev -> pres C (c_group_help_body docgen cev d).
Proof.
  intros [Hg _] H [s k] Hx. unfold c_group_help_body. rewrite (surjective_pairing (kswap k [])).
  pose proof (aside_pres C C cev s k H Hx) as Ha.
  destruct (cev (s, fst (kswap k []))) as [r [s' k']]. destruct Ha as ([[Hi1 Hk1] Hc1] & Hin & Hr).
  rewrite (surjective_pairing (kswap k' _)). split; [|exact Hr]. unfold push_with_group.
  apply hinv_mk; [exact Hi1|rewrite krev_kextend; exact Hk1|apply hints_kextend; [exact Hc1|]].
  destruct (to_completion docgen d) as [g|]; [|exact Hin].
  apply Forall_map. exact (Forall_impl _ (Hg g) Hin).
Qed.

Lemma comp_values_hints C f g v d c ci : hint_closed C -> Forall C c -> C ci -> Forall C (comp_values f g v d c ci).
Proof.
  intros (_ & Hv & Hm & _) Hc Hci. unfold comp_values.
  destruct ci; try (apply Forall_app; split; [exact Hc|constructor; [exact Hci|constructor]]).
  apply Forall_app. split.
  - destruct (Nat.eqb _ 1); [exact Hc|]. apply Forall_app. split; [exact Hc|constructor; [exact Hci|constructor]].
  - apply Forall_map, Forall_forall. intros [b h] _. apply Hv.
Qed.
Lemma fold_comp_values_hints C f g v d inner c :
  hint_closed C -> Forall C c -> Forall C inner -> Forall C (fold_left (comp_values f g v d) inner c).
Proof.
  intros HC. revert c. induction inner as [|ci t IH]; intros c Hc Hi; cbn [fold_left]; [exact Hc|].
  inversion Hi; subst. apply IH; [apply comp_values_hints; assumption|assumption].
Qed.

Lemma complete_pres C cev f g : hint_closed C -> pres C cev -> pres C (c_complete_body cev f g).
Proof.
  intros HC H [s k] Hx. unfold c_complete_body. rewrite (surjective_pairing (kswap k [])).
  pose proof (aside_pres C C cev s k H Hx) as Ha.
  destruct (cev (s, fst (kswap k []))) as [r [s' k']]. destruct Ha as ([[Hi1 Hk1] Hc1] & Hin & Hr).
  rewrite (surjective_pairing (kswap k' _)). cbn [fst snd] in *.
  destruct (fst (kswap k' _)) as [c1|]; [|discriminate].
  destruct r as [v|e|w|]; (split; [|exact Hr]); apply hinv_mk; try assumption.
  - apply fold_comp_values_hints; assumption.
  - apply (hints_kextend C (Some c1)); assumption.
Qed.

Lemma comp_shell_pres C cev op : hint_closed C -> pres C cev -> pres C (c_comp_shell_body cev op).
Proof.
  intros (_ & _ & _ & Hs) H [s k] Hx. unfold c_comp_shell_body. rewrite (surjective_pairing (kswap k [])).
  pose proof (aside_pres C C cev s k H Hx) as Ha.
  destruct (cev (s, fst (kswap k []))) as [r [s' k']]. destruct Ha as ([[Hi1 Hk1] Hc1] & Hin & Hr).
  rewrite (surjective_pairing (kswap k' _)). split; [|exact Hr].
  apply hinv_mk; [exact Hi1|rewrite krev_kextend; exact Hk1|apply hints_kextend; [exact Hc1|]].
  apply Forall_map. refine (Forall_impl _ _ Hin). intros ci Hci. destruct ci; try exact Hci. apply Hs.
Qed.

Lemma or_pick_pres C s k0 stash ra rb sa ka sb kb :
  items s = its -> krev k0 = Some rv -> Forall C (kcomps k0) -> Forall C stash ->
  hinv C (sa, ka) -> hinv C (sb, kb) -> R ra -> R rb ->
  let '(pick, s') := this_or_that ra rb s sa sb in
  hinv C (s', or_comps k0 stash sa ka sb kb pick) /\
  R (match pick with inl true => ra | inl false => rb | inr e => RErr e end).
Proof.
  intros Hi Hk0 Hc0 Hst [[Hia Hka] Hca] [[Hib Hkb] Hcb] Hra Hrb. cbn [fst snd] in *.
  destruct (this_or_that ra rb s sa sb) as [pick s'] eqn:E. apply this_or_that_cases in E.
  assert (Hk : forall s1, items s1 = its -> hinv C (s1, or_comps k0 stash sa ka sb kb pick))
    by (intros s1 H1; apply hinv_mk; [exact H1|apply or_comps_krev; assumption|apply or_comps_hints; assumption]).
  destruct pick as [[|]|e].
  - split; [|exact Hra]. apply Hk. destruct E as [_ [->|(w & _ & ->)]]; exact Hia.
  - split; [|exact Hrb]. apply Hk. destruct E as [_ [->|(w & _ & ->)]]; exact Hib.
  - destruct E as [[Ea ->]|[[Eb ->]|(ea & eb & Ea & Eb & -> & ->)]]; (split; [apply Hk; assumption|]).
    + destruct ra; inversion Ea; subst; exact Hra.
    + destruct rb; inversion Eb; subst; exact Hrb.
    + destruct ra; inversion Ea; destruct rb; inversion Eb; subst. apply R_combine; assumption.
Qed.

Lemma or_pres C ca cb : pres C ca -> pres C cb -> pres C (c_or_body ca cb).
Proof.
  intros Ha Hb [s k] [[Hi Hk] Hc]. cbn [fst snd] in *. unfold c_or_body.
  rewrite (surjective_pairing (kswap k [])).
  assert (Hx0 : hinv C (s, fst (kswap k []))).
  { apply hinv_mk; [exact Hi|rewrite krev_kswap; exact Hk|apply hints_kswap_fst; constructor]. }
  assert (Hst : Forall C (snd (kswap k []))) by (apply hints_kswap_snd; [exact Hc|constructor]).
  specialize (Ha _ Hx0). destruct (ca (s, fst (kswap k []))) as [ra [sa ka]]. destruct Ha as [Hxa Hra].
  specialize (Hb _ Hx0). destruct (cb (s, fst (kswap k []))) as [rb [sb kb]]. destruct Hb as [Hxb Hrb].
  destruct Hx0 as [[_ Hk0] Hc0]. cbn [snd] in *.
  pose proof (or_pick_pres C s _ _ ra rb sa ka sb kb Hi Hk0 Hc0 Hst Hxa Hxb Hra Hrb) as Hp.
  destruct ra as [va|ea|wa|]; try (split; [exact Hxa|exact Hra]);
    (destruct rb as [vb|eb|wb|]; try (split; [exact Hxb|exact Hrb]);
     destruct (this_or_that _ _ s sa sb) as [pick s']; exact Hp).
Qed.

Lemma con_go_pres C ff cevs x first acc err :
  Forall (pres C) cevs -> hinv C x -> (forall e, err = Some e -> R (RErr e)) ->
  let '(r, x') := c_con_go ff cevs x first acc err in hinv C x' /\ R r.
Proof.
  intros H. revert x first acc err. induction H as [|cev l Hc Hl IH]; intros x first acc err Hx He; cbn [c_con_go].
  - destruct err as [e|]; split; auto using hinv_current.
  - specialize (Hc x Hx). destruct (cev x) as [[v|e|w|] x']; destruct Hc as [Hx' Hr]; try (split; auto; fail).
    + apply IH; assumption.
    + destruct (ff && first); [split; auto|]. apply IH; [exact Hx'|]. destruct err as [e0|]; intros e1 E; inversion E; subst; auto.
Qed.
Lemma con_pres C ff cevs : Forall (pres C) cevs -> pres C (c_con_body ff cevs).
Proof.
  intros H x Hx. unfold c_con_body.
  pose proof (con_go_pres C ff cevs x true [] None H Hx) as Hg.
  destruct (c_con_go ff cevs x true [] None) as [r x']. destruct Hg as [Hx' Hr]; [intros e E; discriminate|].
  split; auto using hinv_current.
Qed.

Definition best_pres C (b : c_adj_best) : Prop := hinv C (cb_args b) /\ R (RErr (cb_err b)).
Definition step_pres C (st : c_adj_step) : Prop :=
  match st with
  | CAReturn _ x => hinv C x
  | CANext b => best_pres C b
  | CAStop r _ => R r
  end.

Lemma adj_inner_pres C cev orig before fuel ta best :
  pres C cev -> hinv C orig -> hinv C ta -> best_pres C best -> step_pres C (c_adj_inner cev orig before fuel ta best).
Proof.
  intros H Ho. revert ta best. induction fuel as [|f IH]; intros ta best Hta Hb; cbn [c_adj_inner step_pres]; [auto|].
  pose proof (H ta Hta) as Ht. destruct (cev ta) as [[v|e|w|] [t1 kt]]; destruct Ht as [Hx' Hr]; cbn [step_pres]; auto.
  - destruct (adjacent_scope t1 (fst orig)) as [| |a b]; cbn [step_pres]; auto.
    + destruct (set_scope t1 _ _) as [fin|] eqn:E; cbn [step_pres]; [exact (hinv_scope _ _ _ _ _ _ Hx' E)|auto].
    + destruct (set_scope (fst orig) a b) as [ta'|] eqn:E; cbn [step_pres]; [|auto].
      apply IH; [|exact Hb]. destruct orig as [so ko]. exact (hinv_scope _ _ _ _ _ _ Ho E).
  - destruct (Nat.ltb before (remaining t1)); cbn [step_pres]; [auto|].
    destruct (Nat.ltb (cb_consumed best) (before - remaining t1)); cbn [step_pres]; [split; assumption|exact Hb].
Qed.

Lemma adj_try_pres C cev orig width start best :
  pres C cev -> hinv C orig -> best_pres C best -> step_pres C (c_adj_try cev orig width start best).
Proof.
  intros H Ho Hb. unfold c_adj_try. destruct orig as [so ko]. cbn [fst snd].
  destruct (set_scope so start (length (items so))) as [ta0|] eqn:E0; cbn [step_pres]; [|auto].
  pose proof (hinv_scope _ _ _ _ _ _ Ho E0) as H0.
  destruct (set_scope ta0 start (start + width)) as [scratch|] eqn:E1; cbn [step_pres]; [|auto].
  destruct (Nat.eqb (remaining scratch) 0); cbn [step_pres]; [exact Hb|].
  destruct (cev (scratch, ko)) as [r0 [scratch' ks]].
  (* after the trial run on the scratch window a value and a failure go on alike *)
  destruct r0 as [v|e|w|]; cbn [step_pres]; auto;
    (destruct (Nat.eqb (remaining scratch) (remaining scratch')); cbn [step_pres]; [exact Hb|];
     destruct (set_scope ta0 start (sc_end so)) as [ta1|] eqn:E2; cbn [step_pres]; [|auto];
     pose proof (hinv_scope _ _ _ _ _ _ H0 E2) as H2;
     destruct (Nat.ltb (remaining ta1) (sc_end so - start));
     [destruct (adjacently_available_from ta1 start) as [a b];
      destruct (set_scope ta1 a b) as [ta2|] eqn:E3; cbn [step_pres]; [|auto];
      apply adj_inner_pres; try assumption; exact (hinv_scope _ _ _ _ _ _ H2 E3)
     |apply adj_inner_pres; assumption]).
Qed.

Lemma adj_outer_pres C cev orig width starts best :
  pres C cev -> hinv C orig -> best_pres C best ->
  let '(r, x') := c_adj_outer cev orig width starts best in hinv C x' /\ R r.
Proof.
  intros H Ho. revert best. induction starts as [|st more IH]; intros best Hb; cbn [c_adj_outer].
  - destruct Hb as [Hbx Hbr]. destruct (cb_args best) as [sb kb]. cbn [fst snd].
    destruct (set_scope sb _ _) as [fin|] eqn:E; [|split; auto].
    split; [exact (hinv_scope _ _ _ _ _ _ Hbx E)|exact Hbr].
  - pose proof (adj_try_pres C cev orig width st best H Ho Hb) as Hs.
    destruct (c_adj_try cev orig width st best); cbn [step_pres] in Hs; [split; auto|apply IH, Hs|split; auto].
Qed.

Lemma adjacent_pres C cev fi : pres C cev -> pres C (c_eval_adjacent cev fi).
Proof.
  intros H x Hx. unfold c_eval_adjacent. destruct fi as [it|]; [|split; auto].
  apply adj_outer_pres; try assumption. split; cbn [cb_args cb_err]; [exact Hx|].
  apply R_err. unfold missing_msg. discriminate.
Qed.

Section Levels.
Variable Q : sres -> Prop.
Hypothesis Q_fail : forall f, Q (SFail f) -> R (RErr (MsgParseFailure f)).
Hypothesis Q_level : forall env inf m x r s1 c1,
  xinv rv its (s1, Some c1) -> R r -> Q (fst (c_run_sub_body env inf m x (r, (s1, Some c1)))).

Definition rpres (C : comp -> Prop) (crun : xst -> sres * xst) : Prop :=
  forall x, hinv C x -> let '(r, x') := crun x in hinv C x' /\ Q r.

Lemma cmd_pres (C : comp -> Prop) docgen name aliases shorts help adjacent m i crun :
  (forall e sh, C (CoCommand e (chars_of name) sh)) ->
  rpres C crun -> pres C (c_cmd_body docgen name aliases shorts help adjacent m i crun).
Proof.
  intros Hn H [s k] Hx. unfold c_cmd_body.
  pose proof (take_cmd_any_items ((name :: aliases) ++ map utf8_encode_char shorts) s) as Hit.
  destruct (take_cmd_any _ s) as [hit s1]. cbn [snd] in Hit.
  pose proof (hinv_ledger C s k s1 Hx Hit) as H1.
  assert (Hpush : forall k0, krev k0 = Some rv -> Forall C (kcomps k0) ->
                             hinv C (s1, push_command docgen name (hd_error shorts) help s1 k0)).
  { intros k0 Hk0 Hc0. destruct (kgrow_kpush C _ k0 (Hn (mkExtra (depth s1) None (help_completion docgen help)) (hd_error shorts)))
      as [Gk Gc].
    apply hinv_mk; [exact (proj1 (proj1 H1))|unfold push_command; rewrite Gk; exact Hk0|exact (Gc Hc0)]. }
  destruct hit.
  2:{ split; [|apply R_err; unfold missing_msg; discriminate]. destruct H1 as [[_ Hk] Hc]. apply Hpush; assumption. }
  destruct (touching_last s1 k).
  { split; [|apply R_err; discriminate]. destruct H1 as [[_ Hk] _].
    apply Hpush; [unfold kclear; rewrite krev_kswap; exact Hk|apply hints_kswap_fst; constructor]. }
  destruct (current s1) as [cur|]; [|split; auto].
  destruct (set_scope s1 cur (sc_end s1)) as [s2|] eqn:E2; [|split; auto].
  assert (H3 : hinv C (set_path s2 (path s2 ++ [name]), k)) by exact (hinv_scope _ _ _ _ _ _ H1 E2).
  set (s3 := set_path s2 (path s2 ++ [name])) in *.
  destruct adjacent.
  - destruct (adjacently_available_from s3 (S (sc_start s3))) as [a b].
    destruct (set_scope s3 a b) as [s4|] eqn:E4; [|split; auto].
    pose proof (H _ (hinv_scope _ _ _ _ _ _ H3 E4)) as H5.
    destruct (crun (s4, k)) as [[v|f|w|] [s5 k5]]; destruct H5 as [Hx5 Hq5]; [| |split; auto..].
    + destruct (set_scope s5 _ _) as [s6|] eqn:E6; [|split; auto].
      split; [exact (hinv_scope _ _ _ _ _ _ Hx5 E6)|auto].
    + pose proof (Q_fail f Hq5) as Hr5.
      destruct (adjacent_scope s5 s3) as [| |na nb]; try (split; auto; fail).
      destruct (set_scope s3 na nb) as [o1|] eqn:E7; [|split; auto].
      pose proof (H _ (hinv_scope _ _ _ _ _ _ H3 E7)) as H7.
      destruct (crun (o1, k)) as [[v|f2|w|] [o2 k6]]; destruct H7 as [Hx7 Hq7]; try (split; auto; fail).
      destruct (set_scope o2 _ _) as [o3|] eqn:E8; [|split; auto].
      split; [exact (hinv_scope _ _ _ _ _ _ Hx7 E8)|auto].
  - pose proof (H _ H3) as H4. destruct (crun (s3, k)) as [[v|f|w|] x4]; destruct H4 as [Hx4 Hq4];
      [split; auto|split; [exact Hx4|exact (Q_fail f Hq4)]|split; auto..].
Qed.

Lemma run_sub_body_pres C env inf m x r s1 k1 :
  hinv C (s1, k1) -> R r ->
  let '(q, x') := c_run_sub_body env inf m x (r, (s1, k1)) in hinv C x' /\ Q q.
Proof.
  intros H1 Hr. destruct k1 as [c1|]; [|destruct H1 as [[_ Hk] _]; discriminate].
  pose proof (Q_level env inf m x r s1 c1 (proj1 H1) Hr) as Hq. revert Hq.
  unfold c_run_sub_body. pose proof (run_sub_body_items env inf m (fst x) r s1) as Hit.
  destruct (run_sub_body env inf m (fst x) (r, s1)) as [pr ps]. cbn [snd] in Hit.
  pose proof (hinv_ledger C s1 (Some c1) ps H1 Hit) as Hps.
  destruct (early inf (fst x) r); [split; assumption|]. destruct (check_complete s1 c1); split; assumption.
Qed.

End Levels.
End Pres.
