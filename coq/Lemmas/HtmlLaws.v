(* HtmlLaws.v -- HTML output (C16).  The renderer yields a list of events (tags, text), html_bytes
   prints them.
   (1) the tags a reader of the bytes sees are exactly those of the tag events: user text (help,
       names, metavariables) never opens or closes a tag;
   (2) for a document with balanced blocks the tag events are well nested: style tags inside block
       tags, <dd>/<li> closed by the kind that opened them.
   (2) speaks of the events, (1) ties the events to the bytes. *)
From BpafModel Require Import Docs.
Import ListNotations.

(* outside a tag `<` opens one and `>` is an error; inside, `>` closes it and `<` is an error *)
Fixpoint tags_go (inside : option bytes) (s : bytes) : option (list bytes) :=
  match s with
  | [] => match inside with None => Some [] | Some _ => None end
  | c :: t =>
    match inside with
    | None => if (c =? 60)%N then tags_go (Some []) t else if (c =? 62)%N then None else tags_go None t
    | Some acc =>
      if (c =? 62)%N then option_map (cons (rev acc)) (tags_go None t)
      else if (c =? 60)%N then None else tags_go (Some (c :: acc)) t
    end
  end.
Definition html_tags (s : bytes) : option (list bytes) := tags_go None s.

Lemma tags_go_app a : forall i b x, tags_go i a = Some x ->
  tags_go i (a ++ b) = option_map (app x) (tags_go None b).
Proof.
  induction a as [|c t IH]; intros i b x H; cbn [app tags_go] in *.
  - destruct i; [discriminate|]. inversion H. destruct (tags_go None b); reflexivity.
  - destruct i as [acc|].
    + destruct (c =? 62)%N.
      * destruct (tags_go None t) as [y|] eqn:E; [|discriminate]. cbn in H. inversion H; subst.
        rewrite (IH None b y E). destruct (tags_go None b); reflexivity.
      * destruct (c =? 60)%N; [discriminate|]. apply IH. exact H.
    + destruct (c =? 60)%N; [apply IH; exact H|]. destruct (c =? 62)%N; [discriminate|]. apply IH. exact H.
Qed.

(* what the renderer means to emit: the name of a tag event is its string without the trailing
   newline (strip_nl), the `<` and the `>` (inner): `<div>\n` gives `div`, `</dt>\n` gives `/dt` *)
Definition strip_nl (s : bytes) : bytes := if (last s 0 =? 10)%N then removelast s else s.
Definition inner (s : bytes) : bytes := removelast (tl (strip_nl s)).
Definition ev_tags (e : hev) : list bytes :=
  match e with
  | EOpen t => [inner (open_str t)]
  | EClose t => [inner (close_str t)]
  | EBr => [[98; 114]%N]
  | EHash | EText _ => []
  end.

Lemma text_no_tags s : html_tags (html_escape s) = Some [].
Proof.
  unfold html_tags. induction s as [|c t IH]; [reflexivity|].
  cbn [html_escape flat_map]. fold (html_escape t).
  destruct (N.eqb_spec c 60); [subst; rewrite (tags_go_app k_amp_lt None _ []); [rewrite IH|]; reflexivity|].
  destruct (N.eqb_spec c 62); [subst; rewrite (tags_go_app k_amp_gt None _ []); [rewrite IH|]; reflexivity|].
  cbn [app tags_go]. rewrite (proj2 (N.eqb_neq c 60) n), (proj2 (N.eqb_neq c 62) n0). exact IH.
Qed.

Lemma ev_tags_exact e : html_tags (hev_str e) = Some (ev_tags e).
Proof.
  destruct e as [t|t| | |s]; try (destruct t; vm_compute; reflexivity); try (vm_compute; reflexivity).
  apply text_no_tags.
Qed.

(* C16: reading the HTML back gives exactly the renderer's own tags -- nothing in a help text, a
   name or a metavariable opens or closes one (and no `<` or `>` is left dangling) *)
Theorem html_tags_exact evs : html_tags (html_bytes evs) = Some (flat_map ev_tags evs).
Proof.
  unfold html_bytes. induction evs as [|e t IH]; [reflexivity|].
  cbn [flat_map]. unfold html_tags in *. rewrite (tags_go_app _ None _ _ (ev_tags_exact e)), IH. reflexivity.
Qed.

(* the tags left open after `evs`, innermost first, starting from the open tags `st`;
   None = a closing tag that does not close the innermost open one *)
Fixpoint wn (st : list htag) (evs : list hev) : option (list htag) :=
  match evs with
  | [] => Some st
  | EOpen t :: r => wn (t :: st) r
  | EClose t :: r =>
    match st with
    | t' :: st' => if htag_eqb t t' then wn st' r else None
    | [] => None
    end
  | _ :: r => wn st r
  end.

Lemma wn_app a : forall st b, wn st (a ++ b) = match wn st a with Some st' => wn st' b | None => None end.
Proof.
  induction a as [|e t IH]; intros st b; cbn [app wn]; [reflexivity|].
  destruct e; try apply IH. destruct st as [|t' st']; [reflexivity|]. destruct (htag_eqb t0 t'); [apply IH|reflexivity].
Qed.

Definition style_tags (c : styles) : list htag :=
  (if st_italic c then [HI] else []) ++ (if st_bold c then [HB] else []) ++ (if st_mono c then [HTt] else []).

Lemma change_style_wn cur new rest :
  wn (style_tags cur ++ rest) (change_style cur new) = Some (style_tags new ++ rest).
Proof. destruct cur as [[] [] []], new as [[] [] []]; reflexivity. Qed.

Definition block_tag (b : block) (below : list block) : list htag :=
  match b with
  | BSection2 => [HDiv] | BItemTerm => [HDt]
  | BItemBody => if is_deflist below then [HDd] else [HLi]
  | BDefinitionList => [HDl] | BBlock => [HP] | BSection3 => [HDiv3]
  | _ => []
  end.
Fixpoint block_tags (stack : list block) : list htag :=
  match stack with [] => [] | b :: below => block_tag b below ++ block_tags below end.

Definition open_of (st : hstate) : list htag := style_tags (hs_cur st) ++ block_tags (hs_stack st).

Lemma track_cur st evs : hs_cur (track st evs) = hs_cur st.
Proof.
  unfold track. revert st. induction evs as [|e t IH]; intros st; cbn [fold_left]; [reflexivity|].
  destruct (ev_visible e); rewrite IH; reflexivity.
Qed.
Lemma track_stack st evs : hs_stack (track st evs) = hs_stack st.
Proof.
  unfold track. revert st. induction evs as [|e t IH]; intros st; cbn [fold_left]; [reflexivity|].
  destruct (ev_visible e); rewrite IH; reflexivity.
Qed.

Lemma chunks_no_tags full cs : forall st, wn st (fst (html_chunks full cs)) = Some st.
Proof.
  induction cs as [|c t IH]; intros st; cbn [html_chunks]; [reflexivity|].
  destruct c as [s w| |].
  - specialize (IH st). destruct (html_chunks full t) as [r k]. exact IH.
  - destruct full; [|reflexivity]. specialize (IH st). destruct (html_chunks true t) as [r k]. exact IH.
  - specialize (IH st). destruct (html_chunks full t) as [r k]. exact IH.
Qed.

Lemma blank_no_tags st s : wn s (blank_line st) = Some s.
Proof. unfold blank_line. destruct (hs_empty st || hs_br st); reflexivity. Qed.

Lemma htag_eqb_refl t : htag_eqb t t = true.
Proof. destruct t; reflexivity. Qed.

(* html_step on a block token, with its parts named: what the block itself writes when it opens
   (`st1`: the state after the style reset, `below`: the stack it is pushed on) and when it closes,
   and what it does to the skip counter *)
Definition block_open (b : block) (st1 : hstate) (below : list block) : list hev :=
  match b with
  | BHeader => blank_line st1 ++ [EHash]
  | BSection2 => [EOpen HDiv]
  | BItemTerm => [EOpen HDt]
  | BItemBody => if is_deflist below then [EOpen HDd] else [EOpen HLi]
  | BDefinitionList => [EOpen HDl]
  | BBlock => [EOpen HP]
  | BSection3 => [EOpen HDiv3]
  | _ => []
  end.
Definition block_close (b : block) (st1 : hstate) (below : list block) : list hev :=
  match b with
  | BHeader => blank_line st1
  | BSection2 => [EClose HDiv]
  | BItemTerm => [EClose HDt]
  | BItemBody => if is_deflist below then [EClose HDd] else [EClose HLi]
  | BDefinitionList => [EClose HDl]
  | BBlock => [EClose HP]
  | BSection3 => [EClose HDiv3]
  | _ => []
  end.
Definition skip_in (b : block) (st : hstate) : hstate :=
  match b with
  | BInlineBlock => if Nat.ltb O (hs_skip st) then with_skip st (S (hs_skip st)) else st
  | _ => st
  end.
Definition skip_out (b : block) (st : hstate) : hstate :=
  match b with BInlineBlock => with_skip st (Nat.pred (hs_skip st)) | _ => st end.
Definition is_meta (b : block) : bool := match b with BMeta => true | _ => false end.

Lemma html_step_start full st b :
  html_step full st (TStart b) =
  let e1 := change_style (hs_cur st) st_default in
  let st1 := track (with_style st st_default) e1 in
  let e2 := block_open b st1 (hs_stack st) in
  let st3 := skip_in b (track st1 e2) in
  if is_meta b then None else Some (e1 ++ e2, with_stack st3 (b :: hs_stack st3)).
Proof. destruct b; reflexivity. Qed.

Lemma html_step_end full st b :
  html_step full st (TEnd b) =
  let e1 := change_style (hs_cur st) st_default in
  let st1 := track (with_style st st_default) e1 in
  let e2 := block_close b st1 (tl (hs_stack st1)) in
  if is_meta b then None else Some (e1 ++ e2, skip_out b (track (with_stack st1 (tl (hs_stack st1))) e2)).
Proof. destruct b; reflexivity. Qed.

Lemma skip_in_cur b st : hs_cur (skip_in b st) = hs_cur st.
Proof. destruct b; try reflexivity. cbn [skip_in]. destruct (Nat.ltb O (hs_skip st)); reflexivity. Qed.
Lemma skip_in_stack b st : hs_stack (skip_in b st) = hs_stack st.
Proof. destruct b; try reflexivity. cbn [skip_in]. destruct (Nat.ltb O (hs_skip st)); reflexivity. Qed.
Lemma skip_out_cur b st : hs_cur (skip_out b st) = hs_cur st.
Proof. destruct b; reflexivity. Qed.
Lemma skip_out_stack b st : hs_stack (skip_out b st) = hs_stack st.
Proof. destruct b; reflexivity. Qed.

Lemma block_open_wn b st1 below s : wn s (block_open b st1 below) = Some (block_tag b below ++ s).
Proof.
  destruct b; try reflexivity.
  - cbn [block_open block_tag]. rewrite wn_app, blank_no_tags. reflexivity.
  - cbn [block_open block_tag]. destruct (is_deflist below); reflexivity.
Qed.
Lemma block_close_wn b st1 below s : wn (block_tag b below ++ s) (block_close b st1 below) = Some s.
Proof.
  destruct b; try reflexivity.
  - apply blank_no_tags.
  - cbn [block_close block_tag]. destruct (is_deflist below); reflexivity.
Qed.

(* the stack of open tags follows the style and the block stack *)
Lemma step_wn full st t evs st' :
  html_step full st t = Some (evs, st') ->
  (forall b, t = TEnd b -> exists below, hs_stack st = b :: below) ->
  wn (open_of st) evs = Some (open_of st') /\
  hs_stack st' = match t with TText _ _ => hs_stack st | TStart b => b :: hs_stack st | TEnd _ => tl (hs_stack st) end.
Proof.
  intros H Hb. unfold open_of. destruct t as [sty s|b|b].
  - cbn [html_step] in H.
    destruct (Nat.ltb 0 (hs_skip st)); [inversion H; subst; auto|].
    pose proof (chunks_no_tags full (split true s)) as W.
    destruct (html_chunks full (split true s)) as [e2 k]. cbn [fst] in W.
    inversion H; subst evs st'; clear H.
    assert (E : forall x, hs_cur (if k then with_skip x 1 else x) = hs_cur x /\
                          hs_stack (if k then with_skip x 1 else x) = hs_stack x) by (destruct k; auto).
    rewrite (proj1 (E _)), (proj2 (E _)), track_cur, track_stack. cbn [with_style hs_cur hs_stack].
    rewrite wn_app, change_style_wn, W. auto.
  - rewrite html_step_start in H. cbv zeta in H. destruct (is_meta b); [discriminate|].
    inversion H; subst evs st'; clear H. cbn [with_stack hs_cur hs_stack].
    rewrite skip_in_cur, skip_in_stack, !track_cur, !track_stack. cbn [with_style hs_cur hs_stack].
    rewrite wn_app, change_style_wn. split; [apply block_open_wn|reflexivity].
  - destruct (Hb b eq_refl) as [below Hs].
    rewrite html_step_end in H. cbv zeta in H. destruct (is_meta b); [discriminate|].
    inversion H; subst evs st'; clear H.
    rewrite skip_out_cur, skip_out_stack, track_cur, !track_stack. cbn [with_stack with_style hs_cur hs_stack].
    rewrite track_cur, Hs. cbn [with_style hs_cur tl block_tags].
    rewrite wn_app, change_style_wn. split; [apply block_close_wn|reflexivity].
Qed.

Fixpoint bal (stack : list block) (d : doc) : bool :=
  match d with
  | [] => is_nil stack
  | TText _ _ :: t => bal stack t
  | TStart b :: t => bal (b :: stack) t
  | TEnd b :: t => match stack with b' :: below => block_eqb b b' && bal below t | [] => false end
  end.

Lemma block_eqb_eq a b : block_eqb a b = true -> a = b.
Proof. destruct a, b; cbn; congruence. Qed.

Lemma run_wn full d : forall st evs,
  bal (hs_stack st) d = true -> html_run full st d = Some evs -> wn (open_of st) evs = Some [].
Proof.
  induction d as [|t d IH]; intros st evs Hb Hr; cbn [html_run] in Hr.
  - inversion Hr; subst. cbn [bal] in Hb. destruct (hs_stack st) eqn:Es; [|discriminate].
    unfold open_of. rewrite Es. cbn [block_tags]. rewrite change_style_wn. reflexivity.
  - destruct (html_step full st t) as [[e1 st1]|] eqn:E; [|discriminate].
    destruct (html_run full st1 d) as [rest|] eqn:E2; [|discriminate]. inversion Hr; subst evs.
    assert (Hend : forall b, t = TEnd b -> exists below, hs_stack st = b :: below).
    { intros b ->. cbn [bal] in Hb. destruct (hs_stack st) as [|b' below]; [discriminate|].
      apply andb_prop in Hb. destruct Hb as [Hb _]. apply block_eqb_eq in Hb. subst. eauto. }
    destruct (step_wn full st t e1 st1 E Hend) as [W S].
    rewrite wn_app, W. apply (IH st1 rest); [|exact E2].
    rewrite S. destruct t as [sty s|b|b]; cbn [bal] in Hb; [exact Hb|exact Hb|].
    destruct (hs_stack st) as [|b' below]; [discriminate|]. apply andb_prop in Hb. apply Hb.
Qed.

(* C16: balanced blocks in, well-nested tags out *)
Theorem html_well_nested full d evs :
  bal [] d = true -> render_html_events full d = Some evs -> wn [] evs = Some [].
Proof. intros Hb Hr. apply (run_wn full d hs_init evs Hb Hr). Qed.
