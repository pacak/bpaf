(* Exact.v -- `remaining` is exactly the number of present entries of the ledger inside the scope: set_scope
   establishes this and every legal step of Reach.v keeps it.  Counting is done pointwise (cnt) to make the
   usual facts (monotone in the right end, pointwise comparison, one flipped entry) one-liners. *)
From BpafLemmas Require Import Tac Reach Ledger.
Import ListNotations.

Definition pres (l : list istate) (i : nat) : bool :=
  match nth_error l i with Some st => present st | None => false end.

Definition cnt (f : nat -> bool) (a n : nat) : nat := length (filter f (seq a n)).

Lemma cnt_S f a n : cnt f a (S n) = (if f a then 1 else 0) + cnt f (S a) n.
Proof. unfold cnt. cbn [seq filter]. destruct (f a); reflexivity. Qed.

Lemma cnt_ext f g a n : (forall i, a <= i < a + n -> f i = g i) -> cnt f a n = cnt g a n.
Proof.
  revert a. induction n as [|n IH]; intros a H; [reflexivity|]. rewrite !cnt_S, (H a) by lia.
  f_equal. apply IH. intros i Hi. apply H. lia.
Qed.

Lemma cnt_le f g a n : (forall i, a <= i < a + n -> f i = true -> g i = true) -> cnt f a n <= cnt g a n.
Proof.
  revert a. induction n as [|n IH]; intros a H; [reflexivity|]. rewrite !cnt_S.
  assert (H1 : cnt f (S a) n <= cnt g (S a) n) by (apply IH; intros i Hi; apply H; lia).
  destruct (f a) eqn:Ef; [rewrite (H a) by (try lia; exact Ef); lia|destruct (g a); lia].
Qed.

Lemma cnt_split f a n m : cnt f a (n + m) = cnt f a n + cnt f (a + n) m.
Proof.
  revert a. induction n as [|n IH]; intros a; cbn [Nat.add]; [rewrite Nat.add_0_r; reflexivity|].
  rewrite !cnt_S, IH. replace (S a + n) with (a + S n) by lia. lia.
Qed.

Lemma cnt_const f b a n : (forall i, a <= i < a + n -> f i = b) -> cnt f a n = if b then n else 0.
Proof.
  revert a. induction n as [|n IH]; intros a H; [destruct b; reflexivity|]. rewrite cnt_S, (H a) by lia.
  rewrite IH; [destruct b; reflexivity|]. intros i Hi. apply H. lia.
Qed.

Lemma cnt_zero f a n : (forall i, a <= i < a + n -> f i = false) -> cnt f a n = 0.
Proof. exact (cnt_const f false a n). Qed.

Lemma cnt_all f a n : (forall i, a <= i < a + n -> f i = true) -> cnt f a n = n.
Proof. exact (cnt_const f true a n). Qed.

Lemma cnt_bound f a n : cnt f a n <= n.
Proof. revert a. induction n as [|n IH]; intros a; [reflexivity|]. rewrite cnt_S. specialize (IH (S a)). destruct (f a); lia. Qed.

Lemma cnt_mono_right f a n m : n <= m -> cnt f a n <= cnt f a m.
Proof. intros H. replace m with (n + (m - n)) by lia. rewrite cnt_split. lia. Qed.

Lemma cnt_stretch f a n m : (forall i, a + n <= i < a + m -> f i = false) -> cnt f a m <= cnt f a n.
Proof.
  intros H. destruct (Nat.le_gt_cases m n) as [Hle|Hgt]; [apply cnt_mono_right, Hle|].
  replace m with (n + (m - n)) by lia. rewrite cnt_split, (cnt_zero f (a + n)); [lia|].
  intros i Hi. apply H. lia.
Qed.

Lemma cnt_flip f g a n ix :
  a <= ix < a + n -> f ix = true -> g ix = false -> (forall i, i <> ix -> g i = f i) ->
  cnt g a n = pred (cnt f a n) /\ 1 <= cnt f a n.
Proof.
  intros Hix Hf Hg Ho. revert a Hix. induction n as [|n IH]; intros a Hix; [lia|]. rewrite !cnt_S.
  destruct (Nat.eq_dec a ix) as [->|Hne].
  - rewrite Hf, Hg, (cnt_ext g f (S ix) n); [cbn; lia|]. intros i Hi. apply Ho. lia.
  - rewrite (Ho a Hne). destruct (IH (S a)) as [E L]; [lia|]. rewrite E. destruct (f a); lia.
Qed.

Lemma skipn_nth {A} (l : list A) a :
  skipn a l = match nth_error l a with Some x => x :: skipn (S a) l | None => [] end.
Proof.
  revert a. induction l as [|h t IH]; intros [|a]; cbn [skipn nth_error]; try reflexivity.
  rewrite IH. destruct (nth_error t a); reflexivity.
Qed.

Lemma count_present_cnt l a b : count_present l a b = cnt (pres l) a (b - a).
Proof.
  unfold count_present. generalize (b - a) as n. clear b. intros n. revert a.
  induction n as [|n IH]; intros a; [reflexivity|].
  rewrite cnt_S, skipn_nth. unfold pres at 1. destruct (nth_error l a) as [x|] eqn:E.
  - cbn [firstn filter]. rewrite <- IH. destruct (present x); reflexivity.
  - cbn [firstn filter length]. symmetry. rewrite cnt_zero; [reflexivity|].
    intros i Hi. unfold pres. apply nth_error_None in E.
    destruct (nth_error l i) eqn:Ei; [|reflexivity]. assert (i < length l) by (apply nth_error_Some; congruence). lia.
Qed.

Definition exact (s : state) : Prop := remaining s = count_present (ist s) (sc_start s) (sc_end s).

Lemma pres_update l ix i : ix < length l ->
  pres (update_nth ix Parsed l) i = if Nat.eqb i ix then false else pres l i.
Proof.
  intros H. unfold pres. destruct (Nat.eqb_spec i ix) as [->|Hne].
  - rewrite Ledger.update_nth_same by exact H. reflexivity.
  - rewrite Ledger.update_nth_other by exact Hne. reflexivity.
Qed.

Lemma set_scope_exact s a b s' : set_scope s a b = Some s' -> exact s'.
Proof.
  unfold set_scope. destruct (_ && _); [|discriminate]. intros H; inversion H; subst. reflexivity.
Qed.

Lemma step_exact K s s' : step K s s' -> exact s -> exact s'.
Proof.
  intros St He. destruct St as [k ix s st HK Hin Hat Hp Hacc|s c|s p|s a b s' Hs|s ist' Hlen Hpres].
  - (* one available entry inside the scope is flipped *)
    unfold exact in *. rewrite (sremove_eff k ix s st Hin Hat Hp). cbn [remaining ist sc_start sc_end].
    rewrite count_present_cnt in *. apply in_scope_iff in Hin.
    assert (Hlt : ix < length (ist s)) by (apply nth_error_Some; unfold ist_at in Hat; congruence).
    destruct (cnt_flip (pres (ist s)) (pres (update_nth ix Parsed (ist s))) (sc_start s) (sc_end s - sc_start s) ix) as [E _].
    + lia.
    + unfold pres. unfold ist_at in Hat. rewrite Hat. exact Hp.
    + rewrite pres_update by exact Hlt. rewrite Nat.eqb_refl. reflexivity.
    + intros i Hi. rewrite pres_update by exact Hlt. destruct (Nat.eqb_spec i ix); [contradiction|reflexivity].
    + rewrite E, He. reflexivity.
  - exact He.
  - exact He.
  - eapply set_scope_exact; eauto.
  - unfold exact in *. cbn [remaining ist sc_start sc_end set_ist]. rewrite He, !count_present_cnt. apply cnt_ext.
    intros i _. unfold pres. specialize (Hpres i).
    destruct (nth_error ist' i), (nth_error (ist s) i); cbn in Hpres; congruence.
Qed.

Lemma set_scope_remaining s a b s' : set_scope s a b = Some s' -> remaining s' = cnt (pres (ist s)) a (b - a).
Proof.
  intros H. pose proof (set_scope_exact _ _ _ _ H) as E. apply set_scope_fields in H.
  destruct H as (_ & Ht & _ & _ & _ & Ha & Hb & _). unfold exact in E. rewrite E, Ht, Ha, Hb. apply count_present_cnt.
Qed.

Lemma pres_lt l i : pres l i = true -> i < length l.
Proof. unfold pres. destruct (nth_error l i) eqn:E; [intros _; apply nth_error_Some; congruence|discriminate]. Qed.

Lemma pres_repeat n i : pres (repeat Unparsed n) i = Nat.ltb i n.
Proof.
  unfold pres. destruct (Nat.ltb_spec i n) as [H|H].
  - rewrite nth_error_repeat by exact H. reflexivity.
  - assert (E : nth_error (repeat Unparsed n) i = None) by (apply nth_error_None; rewrite repeat_length; lia).
    rewrite E. reflexivity.
Qed.

Lemma live_pres s i : live s i <-> pres (ist s) i = true.
Proof.
  unfold live, present_at, ist_at, pres. destruct (nth_error (ist s) i) as [st|]; cbn; split; intros H; try discriminate.
  - inversion H. reflexivity.
  - rewrite H. reflexivity.
Qed.

Lemma cnt_pos f a n i : a <= i < a + n -> f i = true -> 1 <= cnt f a n.
Proof.
  intros Hi Hf. replace n with ((i - a) + (1 + (n - (i - a) - 1))) by lia. rewrite !cnt_split.
  replace (a + (i - a)) with i by lia.
  assert (E : cnt f i 1 = 1) by (unfold cnt; cbn [seq filter]; rewrite Hf; reflexivity). lia.
Qed.
