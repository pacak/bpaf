(* WidthLaws.v -- render_console, the width clause of C13: the column counter dominates the length of
   the current line, and a word is only ever placed beyond the width when it is the first thing after
   the indentation / the definition term of its line.  Both hold of every state in `Reach`, a set
   that contains the states the renderer passes through; the splitter (src/buffer/splitter.rs) hands
   it chunks whose declared width covers their characters. *)
From Coq Require Import Lia.
From BpafModel Require Import Console.
From BpafLemmas Require Import ConsoleLaws.
Import ListNotations.
Local Open Scope N_scope.

(* the number of characters after the last line break; the output is kept reversed *)
Fixpoint cur_len (r : str) : N :=
  match r with
  | [] => 0
  | c :: t => if (c =? nl) then 0 else 1 + cur_len t
  end.

Lemma cur_len_nl r : cur_len (nl :: r) = 0.
Proof. reflexivity. Qed.

Lemma cur_len_cons c r : cur_len (c :: r) <= 1 + cur_len r.
Proof. cbn [cur_len]. destruct (c =? nl); lia. Qed.

Lemma cur_len_push s : forall r, cur_len (push_rev s r) <= clen s + cur_len r.
Proof.
  unfold push_rev, clen. induction s as [|c s IH]; intros r; cbn [rev_append length]; [lia|].
  specialize (IH (c :: r)). pose proof (cur_len_cons c r). lia.
Qed.

Lemma clen_pad n : clen (pad n) = n.
Proof. unfold clen, pad. rewrite repeat_length. lia. Qed.

Lemma char_blen_pos c : 1 <= char_blen c.
Proof. unfold char_blen. destruct (c <? 128); [lia|]. destruct (c <? 2048); [lia|]. destruct (c <? 65536); lia. Qed.

Lemma clen_le_blen s : clen s <= blen s.
Proof.
  unfold clen. induction s as [|c s IH]; cbn [length blen]; [lia|]. pose proof (char_blen_pos c). lia.
Qed.

Definition LineInv (st : cstate_r) : Prop := cur_len (rres st) <= char_pos st.

(* a chunk the splitter can produce: the width it declares covers its characters; W_CODE and
   W_TICKED are bpaf's sentinel widths for code lines, far beyond any terminal, and only such a line
   -- or a chunk of width 0 -- can be empty (so that, while nothing is written, the column counter
   is 0 or beyond every width: EmptyInv below) *)
Definition chunk_ok (c : chunk) : Prop :=
  match c with CRaw s w => clen s <= w /\ (s = [] -> w = 0 \/ W_CODE <= w) | _ => True end.

Lemma guarded_line {mw s st r1 cp1 b} : guarded mw s st r1 cp1 b -> LineInv st -> cur_len r1 <= cp1.
Proof.
  intros G H. destruct G as [E|k|k cp _ Hc _].
  - cbn. lia.
  - rewrite cur_len_nl. lia.
  - destruct k as [|k]; [|cbn [repeat app]; rewrite cur_len_nl; lia].
    destruct Hc as [->|[_ Hk]]; [exact H|congruence].
Qed.

Lemma raw_step_line mw s w st : clen s <= w -> LineInv st -> LineInv (raw_step mw s w st).
Proof.
  intros Hw H. unfold LineInv.
  destruct (raw_step_cases mw s w st) as [r1 cp1 G|r1 cp1 i g cp G _ _ ->]; cbn [rres char_pos];
    pose proof (guarded_line G H) as L; [exact L|].
  pose proof (cur_len_push s (push_rev (pad g) (push_rev (pad i) r1))) as P3.
  pose proof (cur_len_push (pad g) (push_rev (pad i) r1)) as P2.
  pose proof (cur_len_push (pad i) r1) as P1. rewrite clen_pad in P1, P2. lia.
Qed.

(* nothing written yet: the counter is at 0, or an empty code line moved it beyond every width *)
Definition EmptyInv (st : cstate_r) : Prop := rres st = [] -> char_pos st = 0 \/ W_CODE <= char_pos st.

Lemma push_rev_nil s r : push_rev s r = [] -> s = [] /\ r = [].
Proof.
  unfold push_rev. rewrite rev_append_rev. intros H. apply app_eq_nil in H. destruct H as [H1 H2].
  split; [|exact H2]. destruct s; [reflexivity|]. cbn in H1. apply app_eq_nil in H1. destruct H1 as [_ H1]. discriminate.
Qed.

Lemma pad_nil n : pad n = [] -> n = 0.
Proof. unfold pad. intros H. destruct (N.to_nat n) eqn:E; [lia|discriminate]. Qed.

Lemma guarded_width {mw s st r1 cp1 b} :
  guarded mw s st r1 cp1 b -> EmptyInv st -> cp1 = 0 \/ W_CODE <= cp1 \/ cp1 + blen s <= mw.
Proof.
  intros G He. destruct G as [E|k|k cp _ _ Hw]; [|left; reflexivity|right; right; exact Hw].
  destruct (He E); auto.
Qed.

Lemma guarded_nil {mw s st r1 cp1 b} :
  guarded mw s st r1 cp1 b -> r1 = [] -> rres st = [] /\ cp1 = char_pos st.
Proof.
  intros G. destruct G as [E|k|k cp Hn _ _]; intros H; [auto|discriminate|].
  apply app_eq_nil in H. destruct H as [_ H]. contradiction.
Qed.

(* a word (or a separating space): the chunk's width is its number of characters *)
Lemma raw_step_width mw s st :
  EmptyInv st ->
  let st' := raw_step mw s (clen s) st in
  char_pos st' <= mw + 2 \/ char_pos st' <= cur_margin (margins st) + 2 + clen s \/ W_CODE <= char_pos st'.
Proof.
  intros He. cbv zeta. pose proof (clen_le_blen s) as Hb.
  destruct (raw_step_cases mw s (clen s) st) as [r1 cp1 G|r1 cp1 i g cp G Hi Hg ->]; cbn [char_pos].
  - (* a dropped space: only on a fresh line *)
    destruct (guarded_drop G eq_refl) as [_ ->]. left. lia.
  - pose proof (guarded_width G He). lia.
Qed.

Lemma raw_step_empty mw s w st : (s = [] -> w = 0 \/ W_CODE <= w) -> EmptyInv st -> EmptyInv (raw_step mw s w st).
Proof.
  intros Hw He. unfold EmptyInv.
  destruct (raw_step_cases mw s w st) as [r1 cp1 G|r1 cp1 i g cp G _ _ ->]; cbn [rres char_pos]; intros Hn.
  - destruct (guarded_nil G Hn) as [E ->]. exact (He E).
  - apply push_rev_nil in Hn. destruct Hn as [Hs Hn]. apply push_rev_nil in Hn. destruct Hn as [Hg Hn].
    apply push_rev_nil in Hn. destruct Hn as [Hi Hr]. apply pad_nil in Hg, Hi.
    destruct (guarded_nil G Hr) as [E ->]. destruct (He E), (Hw Hs); lia.
Qed.

(* the states the renderer passes through, and more: the flags, margins and skip counter are left
   arbitrary, since the invariants do not depend on them *)
Section Reach.
Variable mw : N.

Inductive Reach : cstate_r -> Prop :=
| R_init : Reach init_cr
| R_raw st s w : Reach st -> chunk_ok (CRaw s w) -> Reach (raw_step mw s w st)
| R_nl st sk : Reach st ->
    Reach (mkCR (nl :: rres st) 0 sk (margins st) (pend_nl st) (pend_blank st) (pend_margin st) (cpanic st))
| R_flags st sk m pn pb pm : Reach st -> Reach (set_flags st (rres st) (char_pos st) sk m pn pb pm)
| R_tick st sk m pn pb pm : Reach st -> Reach (set_flags st (tick :: rres st) (char_pos st + 1) sk m pn pb pm).

Lemma states_inv st : Reach st -> LineInv st /\ EmptyInv st.
Proof.
  induction 1 as [|st s w R [IL IE] [Hw He]|st sk R [IL IE]|st sk m pn pb pm R [IL IE]|st sk m pn pb pm R [IL IE]].
  - split; [unfold LineInv; cbn; lia|intros _; left; reflexivity].
  - split; [apply raw_step_line; assumption|apply raw_step_empty; assumption].
  - split; [unfold LineInv; cbn; lia|intros H; discriminate].
  - split; [exact IL|exact IE].
  - split; [|intros H; discriminate]. unfold LineInv, set_flags in *. cbn [rres char_pos].
    pose proof (cur_len_cons tick (rres st)). lia.
Qed.

Lemma chunks_reach full cs : Forall chunk_ok cs -> forall st, Reach st -> Reach (chunks_step full mw cs st).
Proof.
  induction 1 as [|c cs Hc Hcs IH]; intros st R; cbn [chunks_step]; [exact R|].
  destruct c as [s w| |].
  - apply IH. apply R_raw; assumption.
  - destruct full.
    + apply IH. apply (R_nl st (skip st)). exact R.
    + apply (R_nl st 1). exact R.
  - apply IH. apply (R_nl st (skip st)). exact R.
Qed.
End Reach.

Definition suffix (a b : str) : Prop := exists pre, b = pre ++ a.

Lemma suffix_refl a : suffix a a.
Proof. exists []. reflexivity. Qed.
Lemma suffix_cons a c b : suffix a b -> suffix a (c :: b).
Proof. intros [p ->]. exists (c :: p). reflexivity. Qed.
Lemma suffix_tl c a b : suffix (c :: a) b -> suffix a b.
Proof. intros [p ->]. exists (p ++ [c]). rewrite <- app_assoc. reflexivity. Qed.
Lemma suffix_trans a b c : suffix a b -> suffix b c -> suffix a c.
Proof. intros [p ->] [q ->]. exists (q ++ p). rewrite app_assoc. reflexivity. Qed.
Lemma suffix_skipn n a : suffix (skipn n a) a.
Proof. exists (firstn n a). symmetry. apply firstn_skipn. Qed.
Lemma suffix_length a b : suffix a b -> (length a <= length b)%nat.
Proof. intros [p ->]. rewrite app_length. lia. Qed.
#[local] Hint Resolve suffix_refl suffix_cons suffix_skipn : suffix.

Lemma split_nl_parts s : s = fst (split_nl s) ++ match snd (split_nl s) with Some r => nl :: r | None => [] end.
Proof.
  induction s as [|c t IH]; cbn [split_nl]; [reflexivity|].
  destruct (N.eqb_spec c nl) as [->|_]; [reflexivity|]. destruct (split_nl t) as [a b]. cbn [fst snd app] in *. congruence.
Qed.

Lemma take_word_suffix s : suffix (snd (take_word s)) s.
Proof.
  induction s as [|c t IH]; cbn [take_word]; [apply suffix_refl|].
  destruct ((c =? nl) || (c =? sp)); [apply suffix_refl|]. destruct (take_word t) as [a b]. apply suffix_cons, IH.
Qed.

Lemma clen_le a b : (length a <= length b)%nat -> clen a <= clen b.
Proof. unfold clen. lia. Qed.

Lemma split_next_ok docgen code input ch input' code' :
  split_next docgen code input = Some (ch, input', code') ->
  (clen input <= W_CODE -> chunk_ok ch) /\ suffix input' input /\ (docgen = false -> code' = code).
Proof.
  assert (Line : forall (s : str) w, W_CODE <= w ->
    (clen s <= W_CODE -> chunk_ok (CRaw (fst (split_nl s)) w)) /\
    suffix (match snd (split_nl s) with Some r => nl :: r | None => [] end) s).
  { intros s w Hw. pose proof (split_nl_parts s) as P. split.
    - intros Hl. split; [|auto]. rewrite P in Hl. unfold clen in *. rewrite app_length in Hl. lia.
    - exists (fst (split_nl s)). exact P. }
  assert (Wt : W_CODE <= W_TICKED) by (unfold W_CODE, W_TICKED; lia).
  unfold split_next. destruct input as [|c0 tail0]; [discriminate|]. intros H.
  destruct (docgen && match code with CodeNo => false | _ => true end) eqn:Ec.
  - (* inside a fenced block (docgen only): a whole line *)
    assert (Hd : docgen = false -> code' = code) by (intros ->; discriminate).
    destruct (Line (c0 :: tail0) W_TICKED Wt) as [Hc Hs].
    destruct (split_nl (c0 :: tail0)) as [line [rest|]]; cbn [fst snd] in Hc, Hs.
    + destruct (starts_with [nl; nl] (nl :: rest) && _); injection H as <- <- <-; eauto using suffix_tl.
    + injection H as <- <- <-. auto.
  - destruct (c0 =? nl).
    + destruct (starts_with four_spaces tail0).
      * (* an indented code line *)
        destruct (Line (skipn 4 tail0) W_CODE (N.le_refl _)) as [Hc Hs].
        pose proof (suffix_length _ _ (suffix_skipn 4 tail0)) as K.
        assert (Hs' : forall x, suffix x (skipn 4 tail0) -> suffix x (c0 :: tail0))
          by (intros x Hx; apply suffix_cons; eapply suffix_trans; eauto with suffix).
        destruct (split_nl (skipn 4 tail0)) as [line [rest|]]; cbn [fst snd] in Hc, Hs; injection H as <- <- <-;
          (split; [intros Hl; apply Hc; unfold clen in *; cbn [length] in Hl; lia|auto]).
      * destruct (starts_with [nl; tick; tick; tick] tail0).
        { injection H as <- <- <-. split; [intros _; exact I|]. split; [apply suffix_cons, (suffix_skipn 1)|intros ->; reflexivity]. }
        destruct (starts_with (nl :: four_spaces) tail0); [injection H as <- <- <-; cbn; auto with suffix|].
        destruct tail0 as [|c1 t2]; [injection H as <- <- <-; cbn; intuition (auto with suffix; lia || discriminate)|].
        destruct (c1 =? nl); [injection H as <- <- <-; cbn; auto with suffix|].
        destruct (c1 =? sp); injection H as <- <- <-; cbn; intuition (auto with suffix; lia || discriminate).
    + destruct (c0 =? sp); [injection H as <- <- <-; cbn; intuition (auto with suffix; lia || discriminate)|].
      pose proof (take_word_suffix (c0 :: tail0)) as S. destruct (take_word (c0 :: tail0)) as [w rest]. cbn [snd] in S.
      injection H as <- <- <-. split; [intros _; split; [lia|intros ->; left; reflexivity]|auto].
Qed.

Lemma split_go_ok docgen : forall fuel code input, clen input <= W_CODE -> Forall chunk_ok (split_go docgen fuel code input).
Proof.
  induction fuel as [|f IH]; intros code input Hl; cbn [split_go]; [constructor|].
  destruct (split_next docgen code input) as [[[ch input'] code']|] eqn:E; [|constructor].
  destruct (split_next_ok _ _ _ _ _ _ E) as (Hc & Hs & _). constructor; [exact (Hc Hl)|].
  apply IH. apply N.le_trans with (2 := Hl). apply clen_le, suffix_length, Hs.
Qed.

Lemma split_ok docgen s : clen s <= W_CODE -> Forall chunk_ok (split docgen s).
Proof. apply split_go_ok. Qed.

(* no text reaches the sentinel width of a code line (a million characters) *)
Definition texts_ok (d : cdoc) : Prop := forall sty s, In (CText sty s) d -> clen s <= W_CODE.

Lemma token_reach docgen full mw ts st t :
  (forall sty s, t = CText sty s -> clen s <= W_CODE) -> Reach mw st -> Reach mw (token_step docgen full mw ts st t).
Proof.
  intros Ht R. destruct t as [sty s|b|b]; cbn [token_step].
  - destruct (Nat.ltb 0 (skip st)); [exact R|]. apply chunks_reach; [|exact R]. apply split_ok. eapply Ht. reflexivity.
  - destruct b; try exact R; try (apply R_flags; exact R). apply R_tick. exact R.
  - destruct b; try (apply R_flags; exact R). apply R_tick. exact R.
Qed.

Lemma fold_reach docgen full mw ts d : texts_ok d -> forall st, Reach mw st ->
  Reach mw (fold_left (token_step docgen full mw ts) d st).
Proof.
  induction d as [|t d IH]; intros Hd st R; cbn [fold_left]; [exact R|].
  apply IH.
  - intros sty s Hin. apply (Hd sty s). right. exact Hin.
  - apply token_reach; [|exact R]. intros sty s ->. apply (Hd sty s). left. reflexivity.
Qed.

Lemma firstn_incl {A} k (l : list A) x : In x (firstn k l) -> In x l.
Proof.
  revert l. induction k as [|k IH]; intros l H; [contradiction|]. destruct l as [|y l]; [contradiction|].
  cbn in H. destruct H as [H|H]; [left; exact H|right; apply IH; exact H].
Qed.

(* C13, width clause, part 1: at every prefix of every document the column counter is at least the
   length of the line being written *)
Theorem column_dominates_line docgen full mw ts d k :
  texts_ok d ->
  let st := fold_left (token_step docgen full mw ts) (firstn k d) init_cr in
  cur_len (rres st) <= char_pos st.
Proof.
  intros Hd. apply (states_inv mw). apply fold_reach; [|apply R_init].
  intros sty s Hin. apply (Hd sty s). eapply firstn_incl. exact Hin.
Qed.

(* part 2: wherever the renderer stands, placing a word (or a separating space) leaves a line of at
   most width + 2 characters -- unless the word is the first thing after the indentation / the
   definition term (it then starts at the margin, plus the two-column gutter), or the line holds a
   preformatted code line *)
Theorem word_width mw st s :
  Reach mw st ->
  let st' := raw_step mw s (clen s) st in
  cur_len (rres st') <= mw + 2 \/
  cur_len (rres st') <= cur_margin (margins st) + 2 + clen s \/
  W_CODE <= char_pos st'.
Proof.
  intros R. destruct (states_inv mw st R) as [IL IE].
  pose proof (raw_step_line mw s (clen s) st (N.le_refl _) IL) as L. unfold LineInv in L.
  destruct (raw_step_width mw s st IE) as [H|[H|H]]; [left|right; left|right; right]; cbn zeta in *; lia.
Qed.

Theorem render_reach docgen full mw d :
  texts_ok d -> Reach mw (render_state docgen full mw d).
Proof. intros Hd. unfold render_state. apply fold_reach; [exact Hd|apply R_init]. Qed.
