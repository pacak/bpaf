(* TotalAll.v -- C04: every definition `okp`/`oko` accepts (Model/Wf.v) evaluates from every well-formed
   state to a value or an error: every combinator body keeps `safe` (TotalLaws.v; AdjTotal.v for adjacent
   groups and commands), so every evaluator does (Closure.eval_closed); the initial state of a run is
   well-formed, so a whole run ends normally. *)
From BpafModel Require Import Wf.
From BpafLemmas Require Import Tac Reach Ledger LoopLaws C05Lemmas Exact TotalLaws AdjTotal.
Import ListNotations.

Lemma okp_every :
  (forall p, okp p = true -> every (fun p => okp p = true) (fun o => oko o = true) p) /\
  (forall ps, okl ps = true -> every_l (fun p => okp p = true) (fun o => oko o = true) ps) /\
  (forall o, oko o = true -> every_o (fun p => okp p = true) (fun o => oko o = true) o).
Proof.
  apply parser_plist_oparser_ind; cbn [okp okl oko every every_l every_o]; auto.
  - intros fields IH H. destruct (andb_prop _ _ H) as [H1 _]. destruct (andb_prop _ _ H1). auto.
  - intros a IHa b IHb H. destruct (andb_prop _ _ H). auto.
  - intros q IHq t IHt H. destruct (andb_prop _ _ H). auto.
  - intros q IH inf H. destruct (andb_prop _ _ H). auto.
Qed.

Section WithEnv.
Variable env : bytes -> option bytes.

Theorem eval_safe_all :
  (forall p, okp p = true -> safe (eval env p)) /\
  (forall ps, okl ps = true -> Forall safe (evals env ps)) /\
  (forall o, oko o = true -> safe_run (run_sub env o)).
Proof.
  destruct okp_every as (Ep & El & Eo).
  destruct (eval_closed env (fun p => okp p = true) (fun o => oko o = true) safe safe_run
              (flag_safe env) (arg_safe env) (fun mv ty pos help _ => pos_safe mv ty pos help)
              (fun mv help check anywhere _ => any_safe mv help check anywhere)
              (fun name aliases shorts help adjacent sub _ => cmd_safe name aliases shorts help adjacent _ _ _)
              (con_safe false) (group_safe env) or_safe optional_safe many_safe some_safe count_safe last_safe
              fallback_with_safe guard_safe parse_safe map_safe hide_safe pure_safe pure_with_safe fail_safe
              (run_sub_safe env)) as (Hp & Hl & Ho).
  split; [intros p H; apply Hp, Ep, H|]. split; [intros ps H; apply Hl, El, H|intros o H; apply Ho, Eo, H].
Qed.

Theorem eval_total_all :
  (forall p, okp p = true -> total (eval env p)) /\
  (forall ps, okl ps = true -> Forall total (evals env ps)) /\
  (forall o, oko o = true -> totalr (run_sub env o)).
Proof.
  destruct eval_safe_all as (Hp & Hl & Ho). split; [intros p H; apply Hp, H|]. split; [|intros o H; apply Ho, H].
  intros ps H. eapply Forall_impl; [|apply Hl, H]. intros ev [_ T]. exact T.
Qed.
End WithEnv.

Lemma construct_G sf sa name argv : G (fst (construct sf sa name argv)).
Proof.
  split; [apply construct_bounded|].
  unfold construct. set (t := tokenize sf sa argv).
  pose proof (tokenize_marker sf sa argv) as Hmk. fold t in Hmk.
  destruct (t_marker t) as [ix|]; cbn [fst].
  - specialize (Hmk ix eq_refl). split.
    + unfold scope_ok; cbn. rewrite update_nth_length, repeat_length. lia.
    + unfold exact; cbn [remaining ist sc_start sc_end]. rewrite count_present_cnt, Nat.sub_0_r.
      destruct (cnt_flip (pres (repeat Unparsed (length (t_items t))))
                         (pres (update_nth ix Parsed (repeat Unparsed (length (t_items t))))) 0 (length (t_items t)) ix) as [E _].
      * lia.
      * rewrite pres_repeat. apply Nat.ltb_lt. exact Hmk.
      * rewrite pres_update by (rewrite repeat_length; exact Hmk). rewrite Nat.eqb_refl. reflexivity.
      * intros i Hi. rewrite pres_update by (rewrite repeat_length; exact Hmk).
        destruct (Nat.eqb_spec i ix); [contradiction|reflexivity].
      * rewrite E. rewrite cnt_all; [reflexivity|]. intros i Hi. rewrite pres_repeat. apply Nat.ltb_lt. lia.
  - split.
    + unfold scope_ok; cbn. rewrite repeat_length. lia.
    + unfold exact; cbn [remaining ist sc_start sc_end]. rewrite count_present_cnt, Nat.sub_0_r.
      rewrite cnt_all; [reflexivity|]. intros i Hi. rewrite pres_repeat. apply Nat.ltb_lt. lia.
Qed.

Definition normal (o : outcome) : Prop := match o with OutPanic _ | OutFuel => False | _ => True end.

(* C04: every definition `oko` accepts, on every vector, in every environment *)
Theorem run_total feat env o name argv :
  oko o = true -> normal (run_inner feat env o name argv).
Proof.
  intros Hok. unfold run_inner, run_inner_state, initial_state.
  destruct (short_tables o) as [sf sa]. pose proof (construct_G sf sa name argv) as Hg.
  destruct (construct sf sa name argv) as [st amb]. cbn [fst] in Hg.
  destruct amb as [[ix sh]|]; [exact I|].
  pose proof (proj2 (proj2 (eval_total_all env)) o Hok st Hg) as N.
  destruct (run_sub env o st) as [r s']. cbn [fst] in *. destruct r as [v|[h|c|m]|w|]; try contradiction; exact I.
Qed.
Print Assumptions run_total.
