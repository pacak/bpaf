(* ConvSound.v -- C01, the other direction for flat levels: on a vector the grammar specifies the
   parser returns a value ONLY IF the grammar accepts the vector, and then it is the value the grammar
   denotes.  When the scan gives every token a role, the fields are read backwards: a duplicated
   single-occurrence item, a missing required item, a value that does not convert, a positional too
   many or too few -- every way an attributed vector can fail the arity / value checks -- is a
   failure of the parser.  When the scan rejects a token, that token is one no field can remove. *)
From BpafModel Require Import Conv.
From BpafLemmas Require Import Tac Ledger AbsSim ConvLaws ConvRefine ConvChain.
Import ListNotations.

Definition uniq (l : lv) : Prop := NoDup (map fst l).

Lemma uniq_filter f l : uniq l -> uniq (filter f l).
Proof.
  unfold uniq. induction l as [|x t IH]; cbn; [auto|]. intros H. inversion H as [|? ? Hn Ht]; subst.
  destruct (f x); cbn; [|auto]. constructor; [|auto].
  intros Hin. apply Hn. apply in_map_iff in Hin. destruct Hin as (y & E & Hy). apply filter_In in Hy.
  apply in_map_iff. exists y. split; [exact E|apply Hy].
Qed.

Lemma uniq_remove i l : uniq l -> uniq (aremove i l).
Proof. apply uniq_filter. Qed.

Lemma uniq_same l x y : uniq l -> In x l -> In y l -> fst x = fst y -> x = y.
Proof.
  unfold uniq. induction l as [|z t IH]; intros H Hx Hy E; [contradiction|].
  cbn in H. inversion H as [|? ? Hn Ht]; subst.
  destruct Hx as [->|Hx]; destruct Hy as [->|Hy]; auto.
  - exfalso. apply Hn. rewrite E. apply in_map. exact Hy.
  - exfalso. apply Hn. rewrite <- E. apply in_map. exact Hx.
Qed.

Lemma remove_keeps i l x : In x l -> (forall y, In y l -> fst y = i -> y <> x) -> In x (aremove i l).
Proof.
  intros Hx Hne. unfold aremove. apply filter_In. split; [exact Hx|].
  apply negb_true_iff. apply Nat.eqb_neq. intros E. apply (Hne x Hx E). reflexivity.
Qed.

Definition filt (ev : lv -> ares * lv) : Prop := forall l, exists f, snd (ev l) = filter f l.

Lemma filter_filter {A} (f g : A -> bool) l : filter f (filter g l) = filter (fun x => g x && f x) l.
Proof. induction l as [|x t IH]; cbn; [reflexivity|]. destruct (g x); cbn; [destruct (f x); rewrite IH; reflexivity|exact IH]. Qed.

Lemma filter_id {A} (l : list A) : l = filter (fun _ => true) l.
Proof. induction l as [|x t IH]; cbn; [reflexivity|]. rewrite <- IH. reflexivity. Qed.

Lemma filt_flag nm pr ab : filt (aeval_flag nm pr ab).
Proof.
  intros l. unfold aeval_flag. destruct (afind (matches_arg nm false) l) as [[i a]|]; cbn [snd].
  - eexists. reflexivity.
  - destruct ab; cbn; eexists; apply filter_id.
Qed.
Lemma filt_arg nm ty : filt (aeval_arg nm ty).
Proof.
  intros l. unfold aeval_arg. destruct (afind (matches_arg nm false) l) as [[i a]|]; [|cbn; eexists; apply filter_id].
  destruct (aget (S i) l) as [[c adj os|n' adj os|w|w|w]|]; cbn [snd]; try (eexists; apply filter_id);
    rewrite aconvert_snd; unfold aremove; rewrite filter_filter; eexists; reflexivity.
Qed.
Lemma filt_pos ty : filt (aeval_pos ty).
Proof.
  intros l. unfold aeval_pos. destruct (afind is_word l) as [[i a]|]; [|cbn; eexists; apply filter_id].
  destruct a; cbn [snd]; try (eexists; apply filter_id); rewrite aconvert_snd; eexists; reflexivity.
Qed.

Lemma filt_refl l : exists f : nat * arg -> bool, l = filter f l.
Proof. exists (fun _ => true). apply filter_id. Qed.

Lemma filt_trans (a b c : lv) : (exists f, b = filter f a) -> (exists g, c = filter g b) -> exists h, c = filter h a.
Proof. intros [f ->] [g ->]. rewrite filter_filter. eauto. Qed.

Lemma filt_item fuel it : filt (aeval fuel (compile_item it)).
Proof. apply (item_closed _ filt_refl filt_trans); intros _; [apply filt_flag|apply filt_arg]. Qed.

Lemma arun_filt aevs : Forall filt aevs -> forall l vs lk, arun aevs l = Some (vs, lk) -> exists f, lk = filter f l.
Proof. apply (arun_rel _ filt_refl filt_trans). Qed.

Lemma item_filt_all fuel its : Forall filt (map (aeval fuel) (map compile_item its)).
Proof. induction its as [|it t IH]; cbn; constructor; [apply filt_item|exact IH]. Qed.

Lemma filt_uniq ev l : filt ev -> uniq l -> uniq (snd (ev l)).
Proof. intros Hf U. destruct (Hf l) as [f E]. rewrite E. apply uniq_filter. exact U. Qed.

Lemma filt_incl ev l : filt ev -> incl (snd (ev l)) l.
Proof. intros Hf x Hx. destruct (Hf l) as [f E]. rewrite E in Hx. apply filter_In in Hx. apply Hx. Qed.

(* survival of a token x under an invariant of the list that every filtering preserves *)
Section Stuck.
Variable Inv : lv -> Prop.
Hypothesis Inv_filt : forall f l, uniq l -> Inv l -> Inv (filter f l).
Variable x : nat * arg.

Definition safeI (ev : lv -> ares * lv) : Prop := forall l, uniq l -> Inv l -> In x l -> In x (snd (ev l)).
Definition goodI (ev : lv -> ares * lv) : Prop := filt ev /\ safeI ev.

(* what a good evaluator keeps, as a relation between the list before and the list after *)
Definition keepR (l l' : lv) : Prop := uniq l -> Inv l -> In x l -> uniq l' /\ Inv l' /\ In x l'.
Definition keeps (ev : lv -> ares * lv) : Prop := aclosed keepR ev.

Lemma keepR_refl l : keepR l l.
Proof. intros U I Hx. auto. Qed.

Lemma keepR_trans a b c : keepR a b -> keepR b c -> keepR a c.
Proof. intros H1 H2 U I Hx. destruct (H1 U I Hx) as (U1 & I1 & X1). exact (H2 U1 I1 X1). Qed.

Lemma goodI_keeps ev : goodI ev -> keeps ev.
Proof.
  intros [Hf Hs] l U I Hx. destruct (Hf l) as [f E]. split; [|split; [|exact (Hs l U I Hx)]]; rewrite E.
  - apply uniq_filter. exact U.
  - apply Inv_filt; assumption.
Qed.

Lemma item_keeps fuel it :
  (is_argument it = false -> forall pr ab, goodI (aeval_flag (item_named it) pr ab)) ->
  (is_argument it = true -> forall ty, goodI (aeval_arg (item_named it) ty)) ->
  keeps (aeval fuel (compile_item it)).
Proof.
  intros Hfl Har. apply (item_closed _ keepR_refl keepR_trans).
  - intros Ia pr ab. apply goodI_keeps, Hfl, Ia.
  - intros Ia ty. apply goodI_keeps, Har, Ia.
Qed.

Lemma pos_keeps fuel p : (forall ty, goodI (aeval_pos ty)) -> keeps (aeval fuel (compile_pos p)).
Proof. intros Hp. apply (pos_closed _ keepR_refl keepR_trans). intros ty. apply goodI_keeps, Hp. Qed.

(* a surviving token makes the construct! end with a non-empty list, whatever the fields return *)
Lemma acon_go_keeps evs : Forall keeps evs -> forall l acc err, uniq l -> Inv l -> In x l ->
  In x (snd (acon_go evs l acc err)).
Proof. intros H l acc err U I Hx. apply (acon_go_rel _ keepR_refl keepR_trans evs H l acc err U I Hx). Qed.

Lemma arun_keeps aevs : Forall keeps aevs -> forall l vs lk, uniq l -> Inv l -> In x l ->
  arun aevs l = Some (vs, lk) -> In x lk.
Proof. intros H l vs lk U I Hx E. apply (arun_rel _ keepR_refl keepR_trans aevs H l vs lk E U I Hx). Qed.
End Stuck.

Definition noInv : lv -> Prop := fun _ => True.
Lemma noInv_filt (f : nat * arg -> bool) l : uniq l -> noInv l -> noInv (filter f l).
Proof. intros _ _. exact I. Qed.

Lemma in_aget l i a : uniq l -> In (i, a) l -> aget i l = Some a.
Proof.
  intros U Hin. unfold aget. destruct (find (fun p => Nat.eqb (fst p) i) l) as [p|] eqn:F.
  - apply find_some in F. destruct F as [Hp E]. apply Nat.eqb_eq in E.
    assert (Hpe : p = (i, a)) by (apply (uniq_same l); auto). rewrite Hpe. reflexivity.
  - exfalso. pose proof (find_none _ _ F _ Hin) as N. cbn in N. rewrite Nat.eqb_refl in N. discriminate.
Qed.

Lemma aget_filter f l i b : uniq l -> aget i (filter f l) = Some b -> aget i l = Some b.
Proof. intros U H. apply aget_some in H. apply filter_In in H. apply in_aget; [exact U|apply H]. Qed.

Lemma flag_goodI (Inv : lv -> Prop) x nm pr ab :
  matches_arg nm false (snd x) = false -> goodI Inv x (aeval_flag nm pr ab).
Proof.
  intros Mx. split; [apply filt_flag|]. intros l U _ Hx. unfold aeval_flag.
  destruct (afind (matches_arg nm false) l) as [[i a]|] eqn:F; cbn [snd].
  - apply afind_in in F. destruct F as [Hin Ma]. apply remove_keeps; auto. intros y Hy Ey E. subst y.
    assert (x = (i, a)) by (apply (uniq_same l); auto). subst x. cbn in Mx. congruence.
  - destruct ab; cbn; auto.
Qed.

Lemma arg_removal_keeps l x i j a b :
  uniq l -> In x l -> In (i, a) l -> In (j, b) l -> x <> (i, a) -> x <> (j, b) ->
  In x (aremove j (aremove i l)).
Proof.
  intros U Hx Hi Hb N1 N2. apply remove_keeps; [|].
  - apply remove_keeps; auto. intros y Hy Ey E. subst y. apply N1. apply (uniq_same l); auto.
  - intros y Hy Ey E. subst y. apply aremove_incl in Hy. apply N2. apply (uniq_same l); auto.
Qed.

Lemma arg_goodI_gen (Inv : lv -> Prop) x nm ty :
  (forall l i a b w, uniq l -> Inv l -> In x l -> In (i, a) l -> matches_arg nm false a = true ->
     afind (matches_arg nm false) l = Some (i, a) ->
     In (S i, b) l -> is_value b = Some w -> x <> (i, a) /\ x <> (S i, b)) ->
  goodI Inv x (aeval_arg nm ty).
Proof.
  intros H. split; [apply filt_arg|]. intros l U I Hx. unfold aeval_arg.
  destruct (afind (matches_arg nm false) l) as [[i a]|] eqn:F; [|cbn; auto].
  pose proof F as F'. apply afind_in in F. destruct F as [Hin Ma].
  destruct (aget (S i) l) as [b|] eqn:G; [|cbn; auto].
  pose proof (aget_some _ _ _ G) as Hb.
  destruct b as [c adj os|n' adj os|w|w|w]; cbn [snd]; auto; rewrite aconvert_snd;
    (destruct (H l i a _ w U I Hx Hin Ma F' Hb eq_refl) as [N1 N2]; eapply arg_removal_keeps; eauto).
Qed.

Lemma arg_goodI_key (Inv : lv -> Prop) x nm ty :
  is_key (snd x) = true -> matches_arg nm false (snd x) = false -> goodI Inv x (aeval_arg nm ty).
Proof.
  intros Kx Mx. apply arg_goodI_gen. intros l i a b w U _ Hx Hi Ma _ Hb Vb. split; intros ->; cbn in *.
  - congruence.
  - rewrite (value_not_key b w Vb) in Kx. discriminate.
Qed.

Lemma arg_goodI_posword (Inv : lv -> Prop) x nm ty w0 : snd x = PosWord w0 -> goodI Inv x (aeval_arg nm ty).
Proof.
  intros Ex. apply arg_goodI_gen. intros l i a b w U _ Hx Hi Ma _ Hb Vb. split; intros ->; cbn in *; subst.
  - cbn in Ma. discriminate.
  - cbn in Vb. discriminate.
Qed.

Lemma pos_goodI_key (Inv : lv -> Prop) x ty : is_key (snd x) = true -> goodI Inv x (aeval_pos ty).
Proof.
  intros Kx. split; [apply filt_pos|]. intros l U _ Hx. unfold aeval_pos.
  destruct (afind is_word l) as [[i a]|] eqn:F; [|cbn; auto].
  apply afind_in in F. destruct F as [Hin Wa].
  assert (Hk : In x (aremove i l)).
  { apply remove_keeps; auto. intros y Hy Ey E. subst y.
    assert (x = (i, a)) by (apply (uniq_same l); auto). subst x. cbn in Kx. rewrite (word_not_key a Wa) in Kx. discriminate. }
  destruct a; cbn [snd]; auto; rewrite aconvert_snd; exact Hk.
Qed.

Lemma item_keeps_key fuel it x :
  is_key (snd x) = true -> matches_arg (item_named it) false (snd x) = false ->
  keeps noInv x (aeval fuel (compile_item it)).
Proof.
  intros Kx Mx. apply (item_keeps noInv noInv_filt); intros _.
  - intros pr ab. apply flag_goodI. exact Mx.
  - intros ty. apply arg_goodI_key; assumption.
Qed.

Lemma pos_keeps_key fuel p x : is_key (snd x) = true -> keeps noInv x (aeval fuel (compile_pos p)).
Proof. intros Kx. apply (pos_keeps noInv noInv_filt). intros ty. apply pos_goodI_key. exact Kx. Qed.

Lemma WF_uniq items lo t : WF items lo t -> uniq (untag t).
Proof.
  unfold uniq. induction 1 as [lo|lo i a k it t Hl Hk Ho Ha W IH|lo i a k it b w t Hl Hk Ho Ha Hv W IH|lo i a t Hl Hw W IH|lo i a t Hl Hfo W IH];
    cbn [untag map fst].
  - constructor.
  - constructor; [|exact IH]. intros Hin. apply in_map_iff in Hin. destruct Hin as (y & E & Hy).
    pose proof (WF_above items _ _ W y Hy). lia.
  - constructor; [|constructor; [|exact IH]].
    + intros [E|Hin]; [lia|]. apply in_map_iff in Hin. destruct Hin as (y & E & Hy). pose proof (WF_above items _ _ W y Hy). lia.
    + intros Hin. apply in_map_iff in Hin. destruct Hin as (y & E & Hy). pose proof (WF_above items _ _ W y Hy). lia.
  - constructor; [|exact IH]. intros Hin. apply in_map_iff in Hin. destruct Hin as (y & E & Hy).
    pose proof (WF_above items _ _ W y Hy). lia.
  - constructor; [|exact IH]. intros Hin. apply in_map_iff in Hin. destruct Hin as (y & E & Hy).
    pose proof (WF_above items _ _ W y Hy). lia.
Qed.

Section ItemsInv.
Variable items : list citem.
Hypothesis Hdis : disjoint_names items.

(* the named fields of a level, read backwards: exactly their occurrences, or a key left behind *)
Lemma items_arun_inv fuel lo t0 :
  WF items lo t0 -> length t0 < fuel ->
  forall its k vs lk,
    (forall p it, nth_error its p = Some it -> nth_error items (k + p) = Some it) ->
    arun (map (aeval fuel) (map compile_item its)) (untag (filter (keep k) t0)) = Some (vs, lk) ->
    (items_values its k (occs_of t0) = Some vs /\ lk = untag (filter (keep (k + length its)) t0)) \/
    (exists x it, In x lk /\ In it items /\ matches_arg (item_named it) false (snd x) = true).
Proof.
  intros W Hf. induction its as [|it its IH]; intros k vs lk Hn E.
  - cbn in E. inversion E; subst. left. split; [reflexivity|]. rewrite Nat.add_0_r. reflexivity.
  - cbn [map arun items_values] in *.
    assert (Hk : nth_error items k = Some it) by (rewrite <- (Nat.add_0_r k); apply Hn; reflexivity).
    pose proof (item_at items Hdis fuel lo t0 k it W Hf Hk) as St.
    destruct (aeval fuel (compile_item it) (untag (filter (keep k) t0))) as [r l1] eqn:Ee.
    destruct r as [v1|m c|]; try discriminate.
    destruct (arun (map (aeval fuel) (map compile_item its)) l1) as [[vs' l2]|] eqn:Er; [|discriminate].
    inversion E; subst vs lk. clear E.
    destruct (item_value it (occ_of k (occs_of t0))) as [v|].
    + inversion St; subst v1 l1.
      destruct (IH (S k) vs' l2) as [[Hvs El2]|Hl]; [|exact Er| |right; exact Hl].
      * intros p it' Hp. replace (S k + p) with (k + S p) by lia. apply Hn. exact Hp.
      * left. rewrite Hvs. split; [reflexivity|].
        cbn [length]. replace (k + S (length its)) with (S k + length its) by lia. exact El2.
    + (* an occurrence the field left behind is left behind by every later field *)
      right. destruct St as [St|(x & Hx & Mx)]; [destruct (St v1 eq_refl)|]. cbn [snd] in Hx.
      assert (Kx : is_key (snd x) = true) by (eapply match_is_key; exact Mx).
      assert (U1 : uniq l1).
      { pose proof (filt_uniq _ _ (filt_item fuel it) (WF_uniq items lo _ (WF_filter items k _ _ W))) as U. rewrite Ee in U. exact U. }
      exists x, it. split; [|split; [eapply nth_error_In; exact Hk|exact Mx]].
      eapply (arun_keeps noInv x); [|exact U1|exact I|exact Hx|exact Er].
      rewrite Forall_forall. intros ev Hev. apply in_map_iff in Hev. destruct Hev as (q & <- & Hq).
      apply in_map_iff in Hq. destruct Hq as (it' & <- & Hit').
      apply item_keeps_key; [exact Kx|].
      destruct (matches_arg (item_named it') false (snd x)) eqn:M'; [|reflexivity]. exfalso.
      apply In_nth_error in Hit'. destruct Hit' as [p Hp].
      pose proof (Hn (S p) it' Hp) as Hp'.
      pose proof (Hdis (snd x) k (k + S p) it it' Hk Hp' Mx M'). lia.
Qed.
End ItemsInv.

Lemma ok_abstract env n items tail ts ix s s' v :
  flat_ok items tail -> Sim n s (live_from ix ts) ->
  eval env (compile (Level items tail)) s = (ROk v, s') -> first_item_ix s' = None ->
  aeval (S (S n)) (compile (Level items tail)) (live_from ix ts) = (AOk v, []).
Proof.
  intros Hok S0 Ee Hfi. destruct (compile_flat items tail Hok) as [Ec Hflat].
  destruct (eval_sim env n (compile (Level items tail)) Hflat s _ S0) as [R S1].
  rewrite Ee in R, S1. cbn [fst snd] in R, S1.
  destruct (aeval (S (S n)) (compile (Level items tail)) (live_from ix ts)) as [ar l'] eqn:Ha. cbn [fst snd] in R, S1.
  destruct ar as [v'|m c|]; cbn in R; try contradiction. subst v'.
  rewrite (first_item_none _ _ _ S1 Hfi). reflexivity.
Qed.

Lemma level_sound_flat env n items anc tail ts ix s s' v a f :
  flat_ok items tail -> Sim n s (live_from ix ts) -> length ts <= n ->
  scan items anc tail ts = ScDone a ->
  eval env (compile (Level items tail)) s = (ROk v, s') -> first_item_ix s' = None ->
  denote_level (S f) (Level items tail) anc ts = Accept v.
Proof.
  intros Hok S0 Hlen Sc Ee Hfi. pose proof Hok as (Hdis & Hnames & Hl2).
  pose proof (ok_abstract env n items tail ts ix s s' v Hok S0 Ee Hfi) as Ha.
  destruct (compile_flat items tail Hok) as [Ec _].
  destruct (scan_wf items anc tail ts ix a Sc) as (W & Ho & Hw & Hu & Hnf).
  set (t0 := tag_from ix ts (at_roles a)) in *.
  assert (Hlt0 : length t0 < S (S n)).
  { rewrite <- (untag_length t0), Hu. pose proof (live_from_le ts ix) as L. lia. }
  rewrite <- Hu, Ec in Ha. cbn [aeval] in Ha. rewrite aevals_plist, map_app in Ha.
  rewrite <- (filter_keep_0 t0) in Ha at 1.
  destruct (acon_go_arun_inv _ _ _ _ _ _ Ha) as (vs & lk & Ea & Er).
  destruct (items_arun_inv items Hdis (S (S n)) ix t0 W Hlt0 items 0 vs lk (fun p it H => H) Ea)
    as [[Hvs ->]|(x & it & Hx & Hit & Mx)].
  2:{ (* an occurrence a named field left behind is left behind by the positionals *)
    exfalso. assert (Kx : is_key (snd x) = true) by (eapply match_is_key; exact Mx).
    assert (U : uniq lk).
    { destruct (arun_filt _ (item_filt_all (S (S n)) items) _ _ _ Ea) as [g ->]. apply uniq_filter, (WF_uniq items ix), WF_filter, W. }
    refine (_ (acon_go_keeps noInv x (map (aeval (S (S n))) (tail_fields tail)) _ lk (rev vs ++ []) None U I Hx)).
    - rewrite Er. exact (fun F => F).
    - rewrite Forall_forall. intros ev Hev. apply in_map_iff in Hev. destruct Hev as (q & <- & Hq).
      destruct tail as [|ps|cs]; cbn [tail_fields] in Hq; try contradiction.
      apply in_map_iff in Hq. destruct Hq as (p & <- & _). apply pos_keeps_key. exact Kx. }
  cbn [Nat.add] in Er. rewrite app_nil_r in Er.
  cbn [denote_level]. rewrite Sc. rewrite <- Ho, Hvs.
  destruct (words_left items tail ix ts a (scan_wf items anc tail ts ix a Sc)) as (Ww & Aw & Hww).
  cbn zeta in Ww, Aw, Hww. fold t0 in Ww, Aw, Hww. set (tw := filter (keep (length items)) t0) in *.
  destruct tail as [|ps|cs]; [| |contradiction].
  - cbn [tail_fields map acon_go] in Er. inversion Er as [[Ev Et]].
    assert (tw = []) by (destruct tw; [reflexivity|discriminate]).
    rewrite <- Hww, H. cbn. rewrite rev_involutive. reflexivity.
  - cbn [tail_fields] in Er.
    assert (Hlw : length tw < S (S n)) by (unfold tw; pose proof (filter_len_le (keep (length items)) t0); lia).
    pose proof (pos_spec items (S (S n)) ps ix tw (rev vs) Ww Aw Hlw) as Sp. rewrite Hww in Sp.
    destruct (pos_values ps (at_words a)) as [pv|]; [|destruct (Sp v Er)].
    rewrite Sp, rev_involutive in Er. inversion Er. reflexivity.
Qed.

Section Kinds.
Variable items : list citem.

Definition argsafe (b : arg) : Prop :=
  forall it, In it items -> is_argument it = true -> matches_arg (item_named it) false b = false.
(* no value stands right of x *)
Definition InvA (x : nat * arg) (l : lv) : Prop := forall b w, aget (S (fst x)) l = Some b -> is_value b = Some w -> False.
(* no argument's name stands left of x *)
Definition InvB (x : nat * arg) (l : lv) : Prop := forall j b, fst x = S j -> aget j l = Some b -> argsafe b.

Lemma InvA_filt x f l : uniq l -> InvA x l -> InvA x (filter f l).
Proof. intros U I b w G V. apply (I b w); [eapply aget_filter; eauto|exact V]. Qed.
Lemma InvB_filt x f l : uniq l -> InvB x l -> InvB x (filter f l).
Proof. intros U I j b E G. apply (I j b E). eapply aget_filter; eauto. Qed.

Lemma arg_goodI_A x nm ty : is_key (snd x) = true -> goodI (InvA x) x (aeval_arg nm ty).
Proof.
  intros Kx. apply arg_goodI_gen. intros l i a b w U I Hx Hi Ma F Hb Vb. split; intros ->; cbn in *.
  - apply (I b w); [apply in_aget; assumption|exact Vb].
  - rewrite (value_not_key b w Vb) in Kx. discriminate.
Qed.

Lemma arg_goodI_B x it ty :
  In it items -> is_argument it = true -> is_key (snd x) = false ->
  goodI (InvB x) x (aeval_arg (item_named it) ty).
Proof.
  intros Hit Ia Kx. apply arg_goodI_gen. intros l i a b w U I Hx Hi Ma F Hb Vb. split; intros ->; cbn in *.
  - rewrite (match_is_key _ _ _ Ma) in Kx. discriminate.
  - pose proof (I i a eq_refl (in_aget l i a U Hi) it Hit Ia) as N. congruence.
Qed.

Lemma pos_goodI_argword (Inv : lv -> Prop) x ty w0 : snd x = ArgWord w0 -> goodI Inv x (aeval_pos ty).
Proof.
  intros Ex. split; [apply filt_pos|]. intros l U _ Hx. unfold aeval_pos.
  destruct (afind is_word l) as [[i a]|] eqn:F; [|cbn; auto].
  apply afind_in in F. destruct F as [Hin Wa].
  assert (Hk : In x (aremove i l)).
  { apply remove_keeps; auto. intros y Hy Ey E. subst y.
    assert (x = (i, a)) by (apply (uniq_same l); auto). subst x. cbn in Ex. subst a. discriminate. }
  destruct a; cbn [snd]; auto; rewrite aconvert_snd; exact Hk.
Qed.

(* the four ways a token is stuck on a flat level *)
Inductive stuck (tail : ctail) (x : nat * arg) (l : lv) : Prop :=
| St_unowned : is_key (snd x) = true ->
    (forall it, In it items -> matches_arg (item_named it) false (snd x) = false) -> stuck tail x l
| St_novalue it : In it items -> is_argument it = true -> matches_arg (item_named it) false (snd x) = true ->
    InvA x l -> stuck tail x l
| St_stray : is_key (snd x) = false -> InvB x l ->
    (tail = TNone \/ exists w, snd x = ArgWord w) -> stuck tail x l
| St_posword w : snd x = PosWord w -> tail = TNone -> stuck tail x l.

Hypothesis Hdis : disjoint_names items.

Lemma same_owner a it it' : In it items -> In it' items ->
  matches_arg (item_named it) false a = true -> matches_arg (item_named it') false a = true -> it = it'.
Proof.
  intros H1 H2 M1 M2. apply In_nth_error in H1. apply In_nth_error in H2. destruct H1 as [j Hj]. destruct H2 as [k Hk].
  assert (j = k) by (eapply Hdis; eauto). subst k. rewrite Hj in Hk. inversion Hk. reflexivity.
Qed.

Lemma fields_keep (Inv : lv -> Prop) (Inv_filt : forall f l, uniq l -> Inv l -> Inv (filter f l)) x fuel tail :
  (forall it, In it items -> is_argument it = false -> forall pr ab, goodI Inv x (aeval_flag (item_named it) pr ab)) ->
  (forall it, In it items -> is_argument it = true -> forall ty, goodI Inv x (aeval_arg (item_named it) ty)) ->
  (tail = TNone \/ forall ty, goodI Inv x (aeval_pos ty)) ->
  Forall (keeps Inv x) (map (aeval fuel) (map compile_item items ++ tail_fields tail)).
Proof.
  intros Hfl Har Hp. rewrite map_app. apply Forall_app. split; rewrite Forall_forall; intros ev Hev;
    apply in_map_iff in Hev; destruct Hev as (q & <- & Hq).
  - apply in_map_iff in Hq. destruct Hq as (it & <- & Hit).
    apply (item_keeps Inv Inv_filt); intros Ia; [apply Hfl|apply Har]; assumption.
  - destruct tail as [|ps|cs]; cbn [tail_fields] in Hq; try contradiction.
    apply in_map_iff in Hq. destruct Hq as (p & <- & _). apply (pos_keeps Inv Inv_filt).
    destruct Hp as [Hp|Hp]; [discriminate|exact Hp].
Qed.

Lemma stuck_survives fuel tail x l acc err :
  uniq l -> In x l -> stuck tail x l ->
  In x (snd (acon_go (map (aeval fuel) (map compile_item items ++ tail_fields tail)) l acc err)).
Proof.
  intros U Hx St. destruct St as [Kx Hno|it0 Hit0 Ia0 M0 IA|Kx IB Htl|w Ex Htl].
  - (* no item owns the key *)
    refine (acon_go_keeps noInv x _ _ l acc err U I Hx). apply (fields_keep noInv noInv_filt).
    + intros it Hit _ pr ab. apply flag_goodI, Hno, Hit.
    + intros it Hit _ ty. apply arg_goodI_key; [exact Kx|apply Hno, Hit].
    + right. intros ty. apply pos_goodI_key, Kx.
  - (* an argument's name without a value *)
    assert (Kx : is_key (snd x) = true) by (eapply match_is_key; exact M0).
    refine (acon_go_keeps (InvA x) x _ _ l acc err U IA Hx). apply (fields_keep (InvA x) (InvA_filt x)).
    + intros it Hit Ia pr ab. apply flag_goodI.
      destruct (matches_arg (item_named it) false (snd x)) eqn:M; [|reflexivity].
      rewrite (same_owner (snd x) it it0 Hit Hit0 M M0) in Ia. congruence.
    + intros it Hit _ ty. apply arg_goodI_A, Kx.
    + right. intros ty. apply pos_goodI_key, Kx.
  - (* a word or an attached value that no argument's name precedes *)
    refine (acon_go_keeps (InvB x) x _ _ l acc err U IB Hx). apply (fields_keep (InvB x) (InvB_filt x)).
    + intros it Hit _ pr ab. apply flag_goodI, not_key_no_match, Kx.
    + intros it Hit Ia ty. apply arg_goodI_B; assumption.
    + destruct Htl as [->|[w Ew]]; [left; reflexivity|right; intros ty; eapply pos_goodI_argword, Ew].
  - (* a word right of `--` where the level has no positional *)
    subst tail. refine (acon_go_keeps noInv x _ _ l acc err U I Hx). apply (fields_keep noInv noInv_filt).
    + intros it Hit _ pr ab. apply flag_goodI, not_key_no_match. rewrite Ex. reflexivity.
    + intros it Hit _ ty. eapply arg_goodI_posword, Ex.
    + left. reflexivity.
Qed.
End Kinds.

(* the fields a stuck token has to survive besides the named ones: the positionals of a flat level *)
Definition ptail (tail : ctail) : ctail := match tail with TPos ps => TPos ps | _ => TNone end.

Lemma value_head_none_value b r : value_head ((b, false) :: r) = None -> is_value b = None.
Proof. destruct b; cbn; congruence. Qed.

Section ScanRej.
Variable items : list citem.
Hypothesis Hdis : disjoint_names items.

Lemma not_key_argsafe b : is_key b = false -> argsafe items b.
Proof. intros K it _ _. apply not_key_no_match. exact K. Qed.

Lemma flag_key_argsafe a k it : find_owner items a 0 = Some (k, it) -> is_argument it = false -> argsafe items a.
Proof.
  intros Fo Ia it' Hit' Ia'. destruct (matches_arg (item_named it') false a) eqn:M; [|reflexivity].
  destruct (find_owner_in items a k it Fo) as (_ & Hit & Mk).
  rewrite (same_owner items Hdis a it' it Hit' Hit M Mk) in Ia'. congruence.
Qed.

(* a token of an attributed prefix with nothing right after it is no argument's name: an argument's
   name is followed by its value *)
Lemma wf_last_argsafe lo t : WF items lo t -> forall j b, In (j, b) (untag t) ->
  (forall b', ~ In (S j, b') (untag t)) -> argsafe items b.
Proof.
  intros W j b Hin Hn. destruct (untag_in _ _ _ Hin) as [r Hr]. destruct (WF_in items lo t W j b r Hr) as [_ F].
  destruct r as [k|k| |]; cbn in F.
  - destruct F as (_ & it & Fo & Hv). destruct (is_argument it) eqn:Ia; [|eapply flag_key_argsafe; eauto].
    destruct (Hv eq_refl) as (b' & w & Hb' & _). destruct (Hn b'). unfold untag. apply in_map_iff. exists (S j, b', RVal k). auto.
  - destruct F as (_ & _ & _ & w & _ & _ & _ & _ & V). apply not_key_argsafe. eapply value_not_key; eauto.
  - apply not_key_argsafe, word_not_key, F.
  - intros it Hit _. apply F, Hit.
Qed.

Lemma reject_stuck tail ix pre a x rest :
  scan_good items tail ix pre a -> rejects items tail x rest ->
  let l := live_from ix (pre ++ (x, false) :: rest) in
  In (ix + length pre, x) l /\ stuck items (ptail tail) (ix + length pre, x) l.
Proof.
  intros (W & _ & _ & Hu & _) Hr. cbn zeta. set (c := ix + length pre). set (tp := tag_from ix pre (at_roles a)) in *.
  rewrite live_from_app. cbn [live_from app]. fold c. rewrite <- Hu.
  split; [apply in_or_app; right; left; reflexivity|].
  assert (Hlt : forall y, In y (untag tp) -> fst y < c) by (intros y Hy; rewrite Hu in Hy; apply live_from_ub in Hy; exact Hy).
  assert (Hgt : forall y, In y (live_from (S c) rest) -> c < fst y) by (intros y Hy; apply live_from_lb in Hy; lia).
  assert (HB : InvB items (c, x) (untag tp ++ (c, x) :: live_from (S c) rest)).
  { intros j b E G. cbn [fst] in E. apply aget_some in G. apply in_app_or in G. destruct G as [G|[G|G]].
    - apply (wf_last_argsafe ix tp W j b G). intros b' Hb'. apply Hlt in Hb'. cbn in Hb'. lia.
    - inversion G. lia.
    - apply Hgt in G. cbn in G. lia. }
  destruct Hr as [Kx Fo|k it Kx Fo Ia Hnv|w -> Hw|w -> Hp|w ->].
  - apply St_unowned; [exact Kx|]. intros it Hit. cbn [snd]. eapply find_owner_none; eauto.
  - destruct (find_owner_in items x k it Fo) as (_ & Hit & M).
    apply (St_novalue items _ (c, x) _ it Hit Ia M).
    intros b w G V. cbn [fst] in G. apply aget_some in G. apply in_app_or in G. destruct G as [G|[G|G]].
    + apply Hlt in G. cbn in G. lia.
    + inversion G. lia.
    + destruct rest as [|[b0 m0] r']; [contradiction|]. cbn [live_from] in G. apply in_app_or in G. destruct G as [G|G].
      * destruct m0; [contradiction|]. destruct G as [G|[]]. inversion G; subst b0.
        rewrite (value_head_none_value b r' Hnv) in V. discriminate.
      * apply live_from_lb in G. cbn in G. lia.
  - apply St_stray; [reflexivity|exact HB|left]. destruct tail; [reflexivity|contradiction|reflexivity].
  - eapply St_posword; [reflexivity|]. destruct tail as [|ps|cs]; [reflexivity|destruct (Hp ps eq_refl)|reflexivity].
  - apply St_stray; [reflexivity|exact HB|right; exists w; reflexivity].
Qed.
End ScanRej.

Lemma live_from_uniq ts : forall ix, uniq (live_from ix ts).
Proof.
  unfold uniq. induction ts as [|[a m] r IH]; intros ix; cbn [live_from]; [constructor|].
  destruct m; cbn [app map fst]; [apply IH|]. constructor; [|apply IH].
  intros Hin. apply in_map_iff in Hin. destruct Hin as (y & E & Hy). apply live_from_lb in Hy. lia.
Qed.

Lemma flat_reject_false env n items anc tail ts ix s s' v :
  flat_ok items tail -> Sim n s (live_from ix ts) ->
  scan items anc tail ts = ScReject ->
  eval env (compile (Level items tail)) s = (ROk v, s') -> first_item_ix s' = None -> False.
Proof.
  intros Hok S0 Sc Ee Hfi. pose proof Hok as (Hdis & Hnames & Hl2).
  pose proof (ok_abstract env n items tail ts ix s s' v Hok S0 Ee Hfi) as Ha.
  destruct (compile_flat items tail Hok) as [Ec _]. rewrite Ec in Ha. cbn [aeval] in Ha. rewrite aevals_plist in Ha.
  assert (Hnc : forall cs, tail <> TCmds cs) by (intros cs ->; contradiction).
  destruct (scan_reject_decomp items anc tail ts ix Sc) as (pre & x & rest & a & -> & G & Hr).
  destruct (reject_stuck items Hdis tail ix pre a x rest G Hr) as [Hx St].
  assert (Ept : ptail tail = tail) by (destruct tail; [reflexivity|reflexivity|exfalso; eapply Hnc; reflexivity]).
  rewrite Ept in St.
  pose proof (stuck_survives items Hdis (S (S n)) tail _ _ [] None (live_from_uniq _ ix) Hx St) as Hin.
  rewrite Ha in Hin. exact Hin.
Qed.

Lemma flat_sound env n items anc tail ts ix s s' v f :
  flat_ok items tail -> Sim n s (live_from ix ts) -> length ts <= n ->
  denote_level (S f) (Level items tail) anc ts <> Unspecified ->
  eval env (compile (Level items tail)) s = (ROk v, s') -> first_item_ix s' = None ->
  denote_level (S f) (Level items tail) anc ts = Accept v.
Proof.
  intros Hok S0 Hlen Hs Ee Hfi. pose proof Hs as Hs'. cbn [denote_level] in Hs'.
  destruct (scan items anc tail ts) as [a|a sub rest| |] eqn:Sc.
  - exact (level_sound_flat env n items anc tail ts ix s s' v a f Hok S0 Hlen Sc Ee Hfi).
  - exfalso. eapply scan_not_cmd; [|exact Sc]. intros cs ->. destruct Hok as (_ & _ & F). exact F.
  - exfalso. eapply flat_reject_false; eauto.
  - contradiction Hs'. reflexivity.
Qed.

(* C01 for the flat level, both directions: on every vector the grammar specifies, Ok v is returned
   exactly for the sentences with value v *)
Theorem denote_complete_flat feat env items tail argv v :
  flat_ok items tail -> denote (Level items tail) argv <> Unspecified ->
  (denote (Level items tail) argv = Accept v <->
   run_inner feat env (compile_options (Level items tail)) None argv = OutOk v).
Proof.
  intros Hok Hsp. split; [apply denote_accept_flat; exact Hok|]. intros Hr.
  unfold denote in *. destruct (short_tables (compile_options (Level items tail))) as [sf sa] eqn:Est.
  destruct (t_ambiguity (tokenize sf sa argv)) eqn:Ea; [contradiction Hsp; reflexivity|].
  destruct (run_inner_ok feat env _ argv sf sa v Est Ea Hr) as (s0 & s1 & S0 & Ee & Hfi).
  exact (flat_sound env _ items [] tail _ 0 s0 s1 v _ Hok S0 (Nat.eq_le_incl _ _ (mark_tokens_length _)) Hsp Ee Hfi).
Qed.

Corollary denote_reject_flat feat env items tail argv :
  flat_ok items tail -> denote (Level items tail) argv = Reject ->
  forall v, run_inner feat env (compile_options (Level items tail)) None argv <> OutOk v.
Proof.
  intros Hok Hd v Hr.
  assert (Hsp : denote (Level items tail) argv <> Unspecified) by (rewrite Hd; discriminate).
  apply (denote_complete_flat feat env items tail argv v Hok Hsp) in Hr. rewrite Hd in Hr. discriminate.
Qed.
Print Assumptions denote_complete_flat.
Print Assumptions denote_reject_flat.

(* every token of the vector is attributed to this level: no ambiguity, no rejection by the scan *)
Definition attributed (items : list citem) (tail : ctail) (argv : list bytes) : Prop :=
  let st := short_tables (compile_options (Level items tail)) in
  let t := tokenize (fst st) (snd st) argv in
  t_ambiguity t = None /\ exists a, scan items [] tail (mark_tokens t) = ScDone a.

Lemma attributed_specified items tail argv : attributed items tail argv -> denote (Level items tail) argv <> Unspecified.
Proof.
  unfold attributed, denote. destruct (short_tables (compile_options (Level items tail))) as [sf sa]. cbn [fst snd].
  intros [-> [a Sc]]. cbn [denote_level]. rewrite Sc.
  destruct (items_values items 0 (at_occ a)); [|discriminate].
  destruct tail as [|ps|cs]; [destruct (at_words a)|destruct (pos_values ps (at_words a))|]; discriminate.
Qed.

(* equivalently: what the grammar rejects on an attributed vector is never returned as Ok *)
Corollary denote_reject_not_ok feat env items tail argv :
  flat_ok items tail -> attributed items tail argv ->
  denote (Level items tail) argv = Reject ->
  forall v, run_inner feat env (compile_options (Level items tail)) None argv <> OutOk v.
Proof.
  intros Hok Ha Hd v Hr. apply (denote_complete_flat feat env items tail argv v Hok (attributed_specified _ _ _ Ha)) in Hr.
  rewrite Hd in Hr. discriminate.
Qed.

(* together with denote_accept_flat: on attributed vectors the parser and the grammar agree exactly *)
Corollary denote_iff_flat feat env items tail argv v :
  flat_ok items tail -> attributed items tail argv ->
  (denote (Level items tail) argv = Accept v <->
   run_inner feat env (compile_options (Level items tail)) None argv = OutOk v).
Proof.
  intros Hok Ha. apply denote_complete_flat; [exact Hok|apply attributed_specified; exact Ha].
Qed.
