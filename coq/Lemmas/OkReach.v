(* OkReach.v -- what a SUCCESSFUL evaluation consumed.
   eval_reach (Reach.v) bounds every evaluation, failing ones included, and therefore has to allow
   the help/version lookups of run_subparser.  A successful evaluation never keeps the ledger of a
   failed sub-evaluation (wrappers roll back, alternatives keep one fork, retries restart from the
   saved state), so its final state is reachable using only the consumers of the parser itself:
   the help/version flags are not among them, and an alternative contributes the consumers of ONE
   branch.  Corollaries: a help/version item is never swallowed by a successful run (C10), alternatives
   are exclusive (C07). *)
From BpafLemmas Require Import Tac Reach Ledger NoLoss C05Lemmas.

(* kinds_ok without the help and version flags of the levels: the parser's own consumers *)
Fixpoint pkinds_ok (K : ckind -> Prop) (p : parser) {struct p} : Prop :=
  match p with
  | PFlag n _ _ => K (KFlag n)
  | PArg n _ _ _ => K (KArgKey n) /\ K (KArgVal n)
  | PPos _ _ _ _ => K KPos
  | PAny _ _ _ _ => K KAny
  | PCmd name aliases shorts _ _ sub =>
    (forall w, In w ((name :: aliases) ++ map utf8_encode_char shorts) -> K (KCmd w)) /\
    opkinds_ok K sub
  | PCon fields | PAdj fields => lpkinds_ok K fields
  | POr a b => pkinds_ok K a /\ pkinds_ok K b
  | POptional q _ | PMany q _ | PSome q _ _ | PCollect q _ | PCount q | PLast q
  | PFallback q _ _ | PFallbackWith q _ _ | PGuard q _ _ | PParse q _ | PMap q _
  | PHide q | PUsage q _ | PGroupHelp q _ | PBoxed q => pkinds_ok K q
  | PPure _ | PPureWith _ | PFail _ => True
  end
with lpkinds_ok (K : ckind -> Prop) (ps : plist) {struct ps} : Prop :=
  match ps with
  | PNil => True
  | PCons q t => pkinds_ok K q /\ lpkinds_ok K t
  end
with opkinds_ok (K : ckind -> Prop) (o : oparser) {struct o} : Prop :=
  match o with
  | Options q inf => pkinds_ok K q
  end.

Lemma pkinds_ok_every K :
  (forall p, pkinds_ok K p -> every (pkinds_ok K) (fun _ => True) p) /\
  (forall ps, lpkinds_ok K ps -> every_l (pkinds_ok K) (fun _ => True) ps) /\
  (forall o, opkinds_ok K o -> every_o (pkinds_ok K) (fun _ => True) o).
Proof. apply parser_plist_oparser_ind; cbn [pkinds_ok lpkinds_ok opkinds_ok every every_l every_o]; auto; tauto. Qed.

Lemma kinds_ok_pkinds K :
  (forall p, kinds_ok K p -> pkinds_ok K p) /\ (forall ps, lkinds_ok K ps -> lpkinds_ok K ps) /\
  (forall o, okinds_ok K o -> opkinds_ok K o).
Proof.
  apply parser_plist_oparser_ind; cbn [kinds_ok lkinds_ok okinds_ok pkinds_ok lpkinds_ok opkinds_ok]; auto; tauto.
Qed.

Lemma or_ok_branch Ka Kb eva evb s v s' :
  ok_respects (reach Ka) eva -> ok_respects (reach Kb) evb ->
  or_body eva evb s = (ROk v, s') -> reach Ka s s' \/ reach Kb s s'.
Proof.
  intros Ha Hb E. apply or_body_ok in E. destruct E as [(sa & E & H)|(sb & E & H)]; [left; apply Ha in E|right; apply Hb in E];
    (destruct H as [->|(w & Hw & ->)]; [exact E|]; eapply reach_trans; [exact E|apply save_conflicts_reach; exact Hw]).
Qed.

Theorem eval_ok_all K env :
  (forall p, pkinds_ok K p -> ok_respects (reach K) (eval env p)) /\
  (forall ps, lpkinds_ok K ps -> Forall (ok_respects (reach K)) (evals env ps)) /\
  (forall o, opkinds_ok K o -> ok_respects_run (reach K) (run_sub env o)).
Proof.
  destruct (pkinds_ok_every K) as (Ep & El & Eo).
  destruct (eval_ok_respects (reach K) (reach_rel K) env (pkinds_ok K) (fun _ => True)) as (Hp & Hl & Ho).
  - intros n p a H. apply respects_ok. rewrite <- ev_reach_respects. apply eval_flag_reach, H.
  - intros n mv ty adj [H1 H2]. apply respects_ok. rewrite <- ev_reach_respects. apply eval_arg_reach; assumption.
  - intros mv ty pos help H. apply respects_ok. rewrite <- ev_reach_respects. apply eval_pos_reach, H.
  - intros mv help check anywhere H. apply respects_ok. rewrite <- ev_reach_respects. apply eval_any_reach, H.
  - intros name aliases shorts help adjacent sub [Hk _]. apply (cmd_okrel _ (reach_rel K) (reach_scope K) (reach_path K)).
    intros s s1 E. pose proof (take_cmd_any_reach K _ s Hk) as R. rewrite E in R. exact R.
  - intros fields _ H. apply (adjacent_okrel _ (reach_rel K) (reach_scope K)). apply (con_okrel _ (reach_rel K)). exact H.
  - split; [|split]; intros x Hx; [apply Hp|apply Hl|apply Ho]; auto.
Qed.

(* an item none of the parser's own consumers accepts -- for instance `--help` when no item of the
   parser is called help -- makes run_subparser fail: it never yields a value *)
Theorem unclaimable_item :
  forall env o s i a,
    opkinds_ok (fun k => accepts k a = false) o -> lenwf s -> full_scope s ->
    nth_error (items s) i = Some a -> live s i ->
    forall v s', run_sub env o s <> (SOk v, s').
Proof.
  intros env o s i a Hk Hw Hfull Ha Hl v s' Hrun.
  pose proof (proj2 (proj2 (eval_ok_all _ env)) o Hk s v s' Hrun) as R.
  destruct (reach_claimed _ s s' i a R (run_ok_all_dead env o s v s' Hw Hfull Hrun) Hl Ha) as (k & Hrej & Hacc).
  cbn in Hrej. congruence.
Qed.

Theorem foreign_item :
  forall env o s i a,
    okinds_ok (fun k => accepts k a = false) o -> lenwf s -> full_scope s ->
    nth_error (items s) i = Some a -> live s i ->
    forall v s', run_sub env o s <> (SOk v, s').
Proof. intros env o s i a Hk. apply unclaimable_item, kinds_ok_pkinds, Hk. Qed.

Theorem unclaimable_item_run_inner :
  forall feat env o name argv i a st amb,
    opkinds_ok (fun k => accepts k a = false) o ->
    initial_state o name argv = (st, amb) ->
    nth_error (items st) i = Some a -> live st i ->
    forall v, run_inner feat env o name argv <> OutOk v.
Proof.
  intros feat env o name argv i a st amb Hk Hinit Ha Hl v H.
  unfold run_inner, run_inner_state in H. rewrite Hinit in H.
  unfold initial_state in Hinit. destruct (short_tables o) as [sf sa].
  pose proof (construct_ok sf sa name argv) as Hok. rewrite Hinit in Hok. cbn in Hok.
  destruct Hok as [Hw Hfull _].
  assert (Hrun : exists s', run_sub env o st = (SOk v, s')).
  { destruct amb as [[ix sh]|].
    - cbn in H. discriminate.
    - destruct (run_sub env o st) as [r s']. destruct r as [v0|[h|c|m]|w|]; cbn in H; inv H. eauto. }
  destruct Hrun as [s' Hrun].
  eapply unclaimable_item; eauto.
Qed.

(* alternatives are exclusive: if the line holds an item only branch `a` can claim and one only
   branch `b` can claim, `a or b` cannot yield a value *)
Theorem or_exclusive :
  forall env a b inf s i j ti tj,
    pkinds_ok (fun k => accepts k tj = false) a ->
    pkinds_ok (fun k => accepts k ti = false) b ->
    lenwf s -> full_scope s ->
    nth_error (items s) i = Some ti -> live s i ->
    nth_error (items s) j = Some tj -> live s j ->
    forall v s', run_sub env (Options (POr a b) inf) s <> (SOk v, s').
Proof.
  intros env a b inf s i j ti tj Ha Hb Hw Hfull Hti Hli Htj Hlj v s' Hrun.
  pose proof (run_ok_all_dead env _ s v s' Hw Hfull Hrun) as Hdead.
  apply run_sub_ok in Hrun. destruct Hrun as [He _]. rewrite eval_POr in He.
  destruct (or_ok_branch _ _ _ _ _ _ _ (proj1 (eval_ok_all _ env) a Ha) (proj1 (eval_ok_all _ env) b Hb) He) as [R|R].
  - (* only a-consumers ran: j cannot have been claimed *)
    destruct (reach_claimed _ s s' j tj R Hdead Hlj Htj) as (k & Hrej & Hacc). cbn in Hrej. congruence.
  - destruct (reach_claimed _ s s' i ti R Hdead Hli Hti) as (k & Hrej & Hacc). cbn in Hrej. congruence.
Qed.
