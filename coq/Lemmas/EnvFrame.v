(* EnvFrame.v -- the environment is consulted only through the variables a parser declares.
   Every combinator body is extensional in its sub-evaluators (it only applies them), so two
   environments that agree on the declared names give the same evaluation -- no axiom needed.
   Last, what the named leaves do with the line and the environment (C18): the line first, then the variable. *)
From BpafLemmas Require Import Tac Cases Closure.

Definition ev_eq (a b : evaluator) : Prop := forall s, a s = b s.
Definition run_eq (a b : state -> sres * state) : Prop := forall s, a s = b s.

Lemma parse_option_ext a b len s c : ev_eq a b -> parse_option a len s c = parse_option b len s c.
Proof. intros H. unfold parse_option. rewrite H. reflexivity. Qed.

Lemma many_loop_ext a b c fuel len s acc :
  ev_eq a b -> many_loop a c fuel len s acc = many_loop b c fuel len s acc.
Proof.
  intros H. revert len s acc. induction fuel as [|f IH]; intros len s acc; cbn; [reflexivity|].
  rewrite (parse_option_ext a b len s c H).
  destruct (parse_option b len s c) as [[o l] s']. destruct o; auto.
Qed.

Lemma count_loop_ext a b fuel len s cur n last :
  ev_eq a b -> count_loop a fuel len s cur n last = count_loop b fuel len s cur n last.
Proof.
  intros H. revert len s cur n last. induction fuel as [|f IH]; intros len s cur n last; cbn; [reflexivity|].
  rewrite (parse_option_ext a b len s false H).
  destruct (parse_option b len s false) as [[o l] s']. destruct o; auto.
  destruct (Nat.eqb cur (remaining s')); auto.
Qed.

Lemma optional_ext a b c : ev_eq a b -> ev_eq (optional_body a c) (optional_body b c).
Proof. intros H s. unfold optional_body. rewrite (parse_option_ext a b None s c H). reflexivity. Qed.
Lemma many_ext a b c : ev_eq a b -> ev_eq (many_body a c) (many_body b c).
Proof. intros H s. unfold many_body. rewrite (many_loop_ext a b c _ None s [] H). reflexivity. Qed.
Lemma some_ext a b m c : ev_eq a b -> ev_eq (some_body a m c) (some_body b m c).
Proof. intros H s. unfold some_body. rewrite (many_loop_ext a b c _ None s [] H). reflexivity. Qed.
Lemma count_ext a b : ev_eq a b -> ev_eq (count_body a) (count_body b).
Proof. intros H s. unfold count_body. rewrite (count_loop_ext a b _ None s _ _ _ H). reflexivity. Qed.
Lemma last_ext a b : ev_eq a b -> ev_eq (last_body a) (last_body b).
Proof.
  intros H s. unfold last_body. rewrite (count_loop_ext a b _ None s _ _ _ H).
  destruct (count_loop b _ None s _ _ _) as [[[r n] l] s']. destruct r; auto. destruct l; auto.
Qed.
Lemma fallback_with_ext a b fb : ev_eq a b -> ev_eq (fallback_with_body a fb) (fallback_with_body b fb).
Proof. intros H s. unfold fallback_with_body. rewrite H. reflexivity. Qed.
Lemma guard_ext a b c m : ev_eq a b -> ev_eq (guard_body a c m) (guard_body b c m).
Proof. intros H s. unfold guard_body. rewrite H. reflexivity. Qed.
Lemma parse_ext a b f : ev_eq a b -> ev_eq (parse_body a f) (parse_body b f).
Proof. intros H s. unfold parse_body. rewrite H. reflexivity. Qed.
Lemma map_ext a b f : ev_eq a b -> ev_eq (map_body a f) (map_body b f).
Proof. intros H s. unfold map_body. rewrite H. reflexivity. Qed.
Lemma hide_ext a b : ev_eq a b -> ev_eq (hide_body a) (hide_body b).
Proof. intros H s. unfold hide_body. rewrite H. reflexivity. Qed.
Lemma or_ext a1 b1 a2 b2 : ev_eq a1 a2 -> ev_eq b1 b2 -> ev_eq (or_body a1 b1) (or_body a2 b2).
Proof. intros Ha Hb s. unfold or_body. rewrite Ha, Hb. reflexivity. Qed.

Lemma con_go_ext ff evs1 evs2 s first acc err :
  Forall2 ev_eq evs1 evs2 -> con_go ff evs1 s first acc err = con_go ff evs2 s first acc err.
Proof.
  intros H. revert s first acc err. induction H as [|a b l1 l2 Hab Hl IH]; intros s first acc err; cbn;
    [reflexivity|].
  rewrite Hab. destruct (b s) as [r s']. destruct r; auto. destruct (ff && first); auto.
Qed.
Lemma con_ext ff evs1 evs2 : Forall2 ev_eq evs1 evs2 -> ev_eq (con_body ff evs1) (con_body ff evs2).
Proof. intros H s. unfold con_body. rewrite (con_go_ext ff _ _ s true [] None H). reflexivity. Qed.

Lemma adj_inner_ext a b orig before fuel this_arg best :
  ev_eq a b -> adj_inner a orig before fuel this_arg best = adj_inner b orig before fuel this_arg best.
Proof.
  intros H. revert this_arg best. induction fuel as [|f IH]; intros this_arg best.
  - rewrite !adj_inner_O. reflexivity.
  - rewrite !adj_inner_S. rewrite H. destruct (b this_arg) as [r ta]. destruct r; auto.
    destruct (adjacent_scope ta orig); auto. destruct (set_scope orig a0 b0); auto.
Qed.
Lemma adj_try_ext a b orig width start best :
  ev_eq a b -> adj_try a orig width start best = adj_try b orig width start best.
Proof.
  intros H. rewrite !adj_try_eq. destruct (adj_open orig width start) as [| |scratch rest]; auto.
  rewrite H. destruct (b scratch) as [r0 scratch']. destruct (halts r0); auto.
  destruct (Nat.eqb (remaining scratch) (remaining scratch')); auto.
  destruct rest as [[before ta]|]; auto. apply adj_inner_ext, H.
Qed.
Lemma adj_outer_ext a b orig width starts best :
  ev_eq a b -> adj_outer a orig width starts best = adj_outer b orig width starts best.
Proof.
  intros H. revert best. induction starts as [|st more IH]; intros best; cbn; [reflexivity|].
  rewrite (adj_try_ext a b orig width st best H). destruct (adj_try b orig width st best); auto.
Qed.
Lemma adjacent_ext a b fi : ev_eq a b -> ev_eq (eval_adjacent a fi) (eval_adjacent b fi).
Proof. intros H s. unfold eval_adjacent. destruct fi; auto. apply adj_outer_ext. exact H. Qed.

Lemma cmd_adjacent_ext r1 r2 s3 : run_eq r1 r2 -> cmd_adjacent r1 s3 = cmd_adjacent r2 s3.
Proof.
  intros H. unfold cmd_adjacent. destruct (adjacently_available_from s3 (S (sc_start s3))) as [a b].
  destruct (set_scope s3 a b) as [s4|]; auto. rewrite H. destruct (r2 s4) as [r s5]. destruct r; auto.
  destruct (adjacent_scope s5 s3) as [| |na nb]; auto. destruct (set_scope s3 na nb) as [o1|]; auto. rewrite H. reflexivity.
Qed.

Lemma cmd_ext name aliases shorts help adjacent m i r1 r2 :
  run_eq r1 r2 -> ev_eq (cmd_body name aliases shorts help adjacent m i r1)
                        (cmd_body name aliases shorts help adjacent m i r2).
Proof.
  intros H s. rewrite !cmd_body_eq. destruct (take_cmd_any _ s) as [[|] s1]; auto.
  destruct (cmd_entered name s1) as [s3|]; auto.
  destruct adjacent; [apply cmd_adjacent_ext, H|]. unfold lift_run. rewrite H. reflexivity.
Qed.

Fixpoint env_names (p : parser) {struct p} : list bytes :=
  match p with
  | PFlag n _ _ => n_env n
  | PArg n _ _ _ => n_env n
  | PPos _ _ _ _ | PAny _ _ _ _ => []
  | PCmd _ _ _ _ _ sub => oenv_names sub
  | PCon fields | PAdj fields => lenv_names fields
  | POr a b => env_names a ++ env_names b
  | POptional q _ | PMany q _ | PSome q _ _ | PCollect q _ | PCount q | PLast q
  | PFallback q _ _ | PFallbackWith q _ _ | PGuard q _ _ | PParse q _ | PMap q _
  | PHide q | PUsage q _ | PGroupHelp q _ | PBoxed q => env_names q
  | PPure _ | PPureWith _ | PFail _ => []
  end
with lenv_names (ps : plist) {struct ps} : list bytes :=
  match ps with
  | PNil => []
  | PCons q t => env_names q ++ lenv_names t
  end
with oenv_names (o : oparser) {struct o} : list bytes :=
  match o with
  | Options q inf => n_env (i_help_arg inf) ++ n_env (i_version_arg inf) ++ env_names q
  end.

Definition agree (e1 e2 : bytes -> option bytes) (names : list bytes) : Prop :=
  forall n, In n names -> e1 n = e2 n.

Lemma agree_app_l e1 e2 a b : agree e1 e2 (a ++ b) -> agree e1 e2 a.
Proof. intros H n Hn. apply H. apply in_or_app. auto. Qed.
Lemma agree_app_r e1 e2 a b : agree e1 e2 (a ++ b) -> agree e1 e2 b.
Proof. intros H n Hn. apply H. apply in_or_app. auto. Qed.

Lemma env_first_agree e1 e2 names : agree e1 e2 names -> env_first e1 names = env_first e2 names.
Proof.
  induction names as [|n t IH]; intros H; cbn; [reflexivity|].
  rewrite (H n (or_introl eq_refl)). rewrite IH; [reflexivity|].
  intros m Hm. apply H. right. exact Hm.
Qed.

Lemma eval_flag_agree e1 e2 n p a : agree e1 e2 (n_env n) -> ev_eq (eval_flag e1 n p a) (eval_flag e2 n p a).
Proof. intros H s. unfold eval_flag. rewrite (env_first_agree _ _ _ H). reflexivity. Qed.
Lemma eval_arg_agree e1 e2 n mv ty adj :
  agree e1 e2 (n_env n) -> ev_eq (eval_arg e1 n mv ty adj) (eval_arg e2 n mv ty adj).
Proof. intros H s. unfold eval_arg. rewrite (env_first_agree _ _ _ H). reflexivity. Qed.

Lemma info_eval_agree e1 e2 i s :
  agree e1 e2 (n_env (i_help_arg i)) -> agree e1 e2 (n_env (i_version_arg i)) ->
  info_eval e1 i s = info_eval e2 i s.
Proof.
  intros Hh Hv. unfold info_eval.
  rewrite (eval_flag_agree e1 e2 _ VUnit None Hh s).
  destruct (eval_flag e2 (i_help_arg i) VUnit None s) as [r1 s1].
  destruct r1; [rewrite (eval_flag_agree e1 e2 _ VUnit None Hh s1); reflexivity|..];
    (destruct (i_version i); [rewrite (eval_flag_agree e1 e2 _ VUnit None Hv s1)|]; reflexivity).
Qed.

Lemma run_finish_agree e1 e2 inf m s1 err :
  agree e1 e2 (n_env (i_help_arg inf)) -> agree e1 e2 (n_env (i_version_arg inf)) ->
  run_finish e1 inf m s1 err = run_finish e2 inf m s1 err.
Proof. intros Hh Hv. unfold run_finish. rewrite (info_eval_agree e1 e2 inf s1 Hh Hv). reflexivity. Qed.

Lemma run_sub_body_agree e1 e2 inf m s res :
  agree e1 e2 (n_env (i_help_arg inf)) -> agree e1 e2 (n_env (i_version_arg inf)) ->
  run_sub_body e1 inf m s res = run_sub_body e2 inf m s res.
Proof.
  intros Hh Hv. destruct res as [r s1]. rewrite !run_sub_body_eq. destruct r as [v|e|w|]; try reflexivity.
  - destruct (first_item_ix s1); [apply run_finish_agree; assumption|reflexivity].
  - rewrite (run_finish_agree e1 e2 inf m s1 e Hh Hv). reflexivity.
Qed.

Theorem env_frame_all e1 e2 :
  (forall p, agree e1 e2 (env_names p) -> ev_eq (eval e1 p) (eval e2 p)) /\
  (forall ps, agree e1 e2 (lenv_names ps) -> Forall2 ev_eq (evals e1 ps) (evals e2 ps)) /\
  (forall o, agree e1 e2 (oenv_names o) -> run_eq (run_sub e1 o) (run_sub e2 o)).
Proof.
  apply parser_plist_oparser_ind; intros; cbn [env_names lenv_names oenv_names] in *.
  - apply eval_flag_agree; auto.
  - apply eval_arg_agree; auto.
  - intros s. reflexivity.
  - intros s. reflexivity.
  - apply cmd_ext. apply H. auto.
  - intros s. destruct fields as [|q1 [|q2 t]].
    + rewrite !eval_PCon_nil. reflexivity.
    + rewrite !eval_PCon_one. specialize (H H0). rewrite !evals_cons in H. inv H. auto.
    + rewrite !eval_PCon_many. apply con_ext. auto.
  - apply adjacent_ext. apply con_ext. auto.
  - apply or_ext; [apply H|apply H0]; eauto using agree_app_l, agree_app_r.
  - apply optional_ext; auto.
  - apply many_ext; auto.
  - apply some_ext; auto.
  - apply many_ext; auto.
  - apply count_ext; auto.
  - apply last_ext; auto.
  - apply fallback_with_ext; auto.
  - apply fallback_with_ext; auto.
  - apply guard_ext; auto.
  - apply parse_ext; auto.
  - apply map_ext; auto.
  - apply hide_ext; auto.
  - apply H; auto.
  - apply H; auto.
  - intros s. reflexivity.
  - intros s. reflexivity.
  - intros s. reflexivity.
  - apply H; auto.
  - rewrite !evals_nil. constructor.
  - rewrite !evals_cons. constructor; [apply H|apply H0]; eauto using agree_app_l, agree_app_r.
  - intros s. rewrite !run_sub_eq.
    assert (A1 : agree e1 e2 (n_env (i_help_arg i))) by (eapply agree_app_l; eauto).
    assert (A2 : agree e1 e2 (n_env (i_version_arg i))).
    { eapply agree_app_l. eapply agree_app_r. eauto. }
    assert (A3 : agree e1 e2 (env_names p)).
    { eapply agree_app_r. eapply agree_app_r. eauto. }
    rewrite (H A3 s). apply run_sub_body_agree; assumption.
Qed.

Theorem env_frame_run_inner feat e1 e2 o name argv :
  agree e1 e2 (oenv_names o) -> run_inner feat e1 o name argv = run_inner feat e2 o name argv.
Proof.
  intros H. unfold run_inner, run_inner_state.
  destruct (initial_state o name argv) as [st amb].
  destruct (env_frame_all e1 e2) as (_ & _ & Ho).
  destruct amb as [[ix sh]|]; [reflexivity|]; rewrite (Ho o H st); reflexivity.
Qed.

Theorem arg_line_first e n mv ty adj s w s' :
  take_arg n adj s = TASome w s' -> eval_arg e n mv ty adj s = convert_res ty w s'.
Proof. intros H. unfold eval_arg. rewrite H. reflexivity. Qed.

Theorem arg_env_fallback e n mv ty adj s v :
  take_arg n adj s = TANone -> env_first e (n_env n) = Some v ->
  eval_arg e n mv ty adj s = convert_res ty v (set_current s None).
Proof. intros H1 H2. unfold eval_arg. rewrite H1, H2. reflexivity. Qed.

Theorem flag_present_iff e n p a s :
  fst (eval_flag e n p a s) = ROk p <->
  (take_flag n s <> None \/ env_first e (n_env n) <> None \/ a = Some p).
Proof.
  unfold eval_flag. destruct (take_flag n s) eqn:Ht; cbn.
  - split; auto. intros _. left. discriminate.
  - destruct (env_first e (n_env n)) eqn:He; cbn.
    + split; auto. intros _. right. left. discriminate.
    + destruct a as [x|]; cbn.
      * split.
        -- intros H. inv H. auto.
        -- intros [H|[H|H]]; try congruence.
      * destruct (flag_item n); cbn; [split; [discriminate|intros [H|[H|H]]; congruence]|].
        destruct (n_env n); cbn; split; try discriminate; intros [H|[H|H]]; congruence.
Qed.

(* the first set declared variable wins *)
Theorem env_first_spec e names v :
  env_first e names = Some v <->
  exists pre n post, names = pre ++ n :: post /\ e n = Some v /\ forall m, In m pre -> e m = None.
Proof.
  split.
  - induction names as [|n t IH]; cbn; [discriminate|].
    destruct (e n) eqn:En.
    + intros H; inv H. exists [], n, t. repeat split; auto. intros m [].
    + intros H. destruct (IH H) as (pre & n0 & post & -> & Hn & Hpre).
      exists (n :: pre), n0, post. repeat split; auto. intros m [<-|Hm]; auto.
  - intros (pre & n & post & -> & Hn & Hpre). induction pre as [|m pre IH]; cbn.
    + rewrite Hn. reflexivity.
    + rewrite (Hpre m (or_introl eq_refl)). apply IH. intros x Hx. apply Hpre. right. exact Hx.
Qed.

(* absent from the line and no declared variable set: the item is reported absent (catchable),
   naming the item, or the variable for a name-less item; the state is untouched *)
Theorem arg_absent e n mv ty adj s :
  take_arg n adj s = TANone -> env_first e (n_env n) = None ->
  snd (eval_arg e n mv ty adj s) = s /\
  ((exists it, arg_item n mv = Some it /\ fst (eval_arg e n mv ty adj s) = RErr (missing_msg it s)) \/
   (exists v t, n_env n = v :: t /\ fst (eval_arg e n mv ty adj s) = RErr (MsgNoEnv v)) \/
   (n_short n = [] /\ n_long n = [] /\ n_env n = [])).
Proof.
  intros H1 H2. unfold eval_arg. rewrite H1, H2.
  destruct (arg_item n mv) as [it|] eqn:Hi; cbn.
  - split; [reflexivity|]. left. eauto.
  - destruct (n_env n) as [|v t] eqn:He; cbn.
    + split; [reflexivity|]. right. right.
      unfold arg_item, shortlong_of in Hi. destruct (n_short n), (n_long n); try discriminate. auto.
    + split; [reflexivity|]. right. left. eauto.
Qed.
