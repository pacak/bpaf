(* ConvStderr.v -- C01, last clause: what the grammar rejects is reported on stderr.
   A rejected vector holds no help flag (the grammar leaves every vector with one unspecified), the
   compiled parser has the default Info at every level, so by QuietLaws the run does not end on
   stdout; by ConvTreeSound it is not a value; and a compiled tree is a definition the totality
   theorem covers (TotalAll), so it is not a panic outcome either. *)
From BpafModel Require Import Conv Wf.
From BpafLemmas Require Import Tac ConvLaws ConvRefine ConvTotal ConvTree ConvTreeSound QuietLaws.
Import ListNotations.

Lemma item_quiet it : dinfo (compile_item it).
Proof. destruct it as [n|n p a|n p|n|n p|n mv ty ar]; cbn; try exact I. destruct ar; exact I. Qed.

Lemma pos_quiet_c p : dinfo (compile_pos p).
Proof. unfold compile_pos. destruct (cp_par p); exact I. Qed.

Theorem compile_quiet l : dinfo (compile l).
Proof.
  apply (compile_closed (fun _ => True) (fun _ => True) dinfo dinfo); auto.
  - exact pos_quiet_c.
  - intros x y Hx Hy. split; assumption.
  - intros name aliases sub rest _ Hs. cbn [dinfo dinfo_o]. split; [exact Hs|]. repeat split; reflexivity.
  - intros items tail fs _ Hfs. cbn [dinfo].
    apply (Forall_plist dinfo dinfo_l); [exact I|intros p t Hp Ht; split; assumption|].
    apply Forall_app. split; [|exact Hfs]. apply Forall_forall. intros q Hq. apply in_map_iff in Hq.
    destruct Hq as (it & <- & _). apply item_quiet.
Qed.

Lemma mark_go_in mk its : forall ix0 k a, nth_error its k = Some a -> mk <> Some (ix0 + k) -> In (a, false) (mark_go mk its ix0).
Proof.
  induction its as [|x t IH]; intros ix0 k a Hn Hm; [destruct k; discriminate|].
  cbn [mark_go]. destruct k as [|k]; cbn in Hn.
  - inversion Hn; subst. left. f_equal. destruct mk as [m|]; [|reflexivity].
    apply Nat.eqb_neq. intros E. apply Hm. rewrite Nat.add_0_r. congruence.
  - right. apply (IH (S ix0) k a Hn). replace (S ix0 + k) with (ix0 + S k) by lia. exact Hm.
Qed.

Theorem okp_tree l : tree_ok l -> okp (compile l) = true.
Proof.
  apply (compile_closed tree_ok tree_ok_cs (fun p => okp p = true) (fun p => okp p = true)).
  - intros items cs Hok. apply Hok.
  - intros name aliases sub rest Hok. exact Hok.
  - exact okp_pos.
  - intros x y Hx Hy. cbn [okp]. rewrite Hx, Hy. reflexivity.
  - intros name aliases sub rest _ Hs. cbn [okp oko]. rewrite Hs. apply invariant_ok_compile.
  - intros items tail fs Hok Hfs. cbn [okp]. rewrite okl_plist, forallb_app. apply andb_true_intro.
    split; apply forallb_forall; [|apply Forall_forall, Hfs].
    intros q Hq. apply in_map_iff in Hq. destruct Hq as (it & <- & Hit). apply okp_item.
    assert (Hnames : Forall (fun it => named_ok (item_named it) = true) items) by (destruct tail; apply Hok).
    rewrite Forall_forall in Hnames. exact (Hnames it Hit).
Qed.

Lemma oko_tree l : tree_ok l -> oko (compile_options l) = true.
Proof.
  intros Hok. unfold compile_options. cbn [oko]. rewrite (okp_tree l Hok). apply invariant_ok_compile.
Qed.

(* C04/C01: a conventional subcommand tree is total on every vector *)
Theorem tree_run_total feat env l name argv : tree_ok l -> TotalAll.normal (run_inner feat env (compile_options l) name argv).
Proof. intros Hok. apply TotalAll.run_total. apply oko_tree. exact Hok. Qed.

(* C01, last clause, for whole trees: every specified non-sentence is reported on stderr -- it is
   not a value (ConvTreeSound), the run is quiet because a specified vector holds no help flag
   (QuietLaws), and it is total (TotalAll) *)
Theorem denote_reject_stderr_tree feat env l argv :
  tree_ok l -> plain_cmds l = true -> denote l argv = Reject ->
  exists m, run_inner feat env (compile_options l) None argv = OutStderr m.
Proof.
  intros Hok Hpl Hd.
  pose proof (denote_reject_tree feat env l argv Hok Hpl Hd) as Hno.
  pose proof (tree_run_total feat env l None argv Hok) as H2. unfold TotalAll.normal in H2.
  assert (Hq : match run_inner feat env (compile_options l) None argv with OutStdout _ | OutCompletion _ => False | _ => True end).
  { apply run_quiet_every.
    - cbn. split; [apply compile_quiet|]. repeat split; reflexivity.
    - unfold denote in Hd. destruct (short_tables (compile_options l)) as [sf sa]. cbn [fst snd].
      destruct (t_ambiguity (tokenize sf sa argv)); [discriminate|].
      assert (Hs : denote_level (S (length (t_items (tokenize sf sa argv)))) l [] (mark_tokens (tokenize sf sa argv)) <> Unspecified)
        by (rewrite Hd; discriminate).
      pose proof (spec_free _ l [] _ Hok (fun it it' a _ F => match F with end) Hs) as Hf.
      intros ix a Ha Hm. apply (Hf a). unfold mark_tokens. apply (mark_go_in _ _ 0 ix a Ha). cbn. exact Hm. }
  destruct (run_inner feat env (compile_options l) None argv) as [v|h|c|m|w|]; try contradiction; eauto.
  destruct (Hno v eq_refl).
Qed.
Print Assumptions denote_reject_stderr_tree.

(* for flat levels: a flat level is a tree without subcommands *)
Theorem denote_reject_stderr_flat feat env items tail argv :
  flat_ok items tail -> denote (Level items tail) argv = Reject ->
  exists m, run_inner feat env (compile_options (Level items tail)) None argv = OutStderr m.
Proof.
  intros Hok. apply denote_reject_stderr_tree; destruct tail as [|ps|cs]; try exact Hok; try reflexivity;
    destruct Hok as (_ & _ & []).
Qed.
Print Assumptions denote_reject_stderr_flat.
