(* ConvTotal.v -- the flat fragment and the flat level are total (C04/C01): the outcome is a value, a
   help/version document or an error message, never a panic outcome, never fuel exhaustion; the
   positional invariant check passes on every compiled level; the verdict of a flat level depends on
   the vector only through what each item and the positional suffix read from it (C03). *)
From BpafModel Require Import Conv Wf.
From BpafLemmas Require Import Tac Reach Exact TotalLaws AbsSim ConvLaws ConvRefine.
Import ListNotations.

(* the flat fragment is total (C04): a parser of the fragment is one of the definitions TotalAll
   covers, and a state whose live tokens are listed by a view is one of its well-formed states *)
Lemma named_keyed n : named_ok n = true -> keyedb n = true.
Proof.
  unfold named_ok, keyedb, shortlong_of. intros H. apply andb_prop in H. destruct H as [_ H].
  destruct (n_short n), (n_long n); cbn in *; try reflexivity; discriminate.
Qed.

Lemma flatp_okp :
  (forall p, flatp p = true -> okp p = true) /\ (forall ps, lflatp ps = true -> okl ps = true) /\
  (forall o : oparser, True).
Proof.
  apply parser_plist_oparser_ind; intros; try exact I; cbn [flatp lflatp okp okl] in *; try discriminate; auto.
  - apply named_keyed. assumption.
  - apply andb_prop in H. apply named_keyed, H.
  - destruct fields as [|q1 [|q2 t]]; try discriminate. auto.
  - apply andb_prop in H0. apply H, H0.
  - apply andb_prop in H0. apply H, H0.
  - apply andb_prop in H0. apply H, H0.
  - apply andb_prop in H1. destruct H1 as [Hq Ht]. rewrite (H Hq), (H0 Ht). reflexivity.
Qed.

Lemma view_from_len ix its sts : length (view_from ix its sts) <= length its.
Proof.
  revert ix sts. induction its as [|a t IH]; intros ix [|st sts]; cbn; try lia.
  rewrite app_length. specialize (IH (S ix) sts). destruct (present st); cbn; lia.
Qed.

Lemma sim_G n s l : Sim n s l -> G s.
Proof.
  intros [Hi Hs H0 He Hv Hr].
  assert (Hl : length l <= n).
  { rewrite <- Hv. unfold view.
    pose proof (view_from_len (sc_start s) (skipn (sc_start s) (items s)) (skipn (sc_start s) (ist s))) as H.
    rewrite skipn_length, Hi in H. lia. }
  split; [split; lia|]. split; [split; lia|].
  unfold exact. rewrite Hr, He, <- Hi, <- Hv. symmetry. apply count_present_view; lia.
Qed.

(* C04 for the flat fragment: on a full-scope state every parser of the fragment returns a value or
   an error -- there is no panic outcome and the loop fuel is never exhausted *)
Theorem flat_eval_total env n p s l :
  flatp p = true -> Sim n s l ->
  (exists v, fst (eval env p s) = ROk v) \/ (exists e, fst (eval env p s) = RErr e).
Proof.
  intros Hf HS.
  pose proof (proj1 (TotalAll.eval_total_all env) p (proj1 flatp_okp p Hf) s (sim_G n s l HS)) as N.
  destruct (fst (eval env p s)); cbn in N; try contradiction; eauto.
Qed.

(* the positional invariant check (Meta::positional_invariant_check: no named item to the right of
   a positional one) passes on every compiled level: the items leave the flag down, and what follows
   them -- positionals, commands, alternatives of commands -- passes whatever the flag. *)
Fixpoint inv_all (xs : list meta) (is_pos : bool) : option bool :=
  match xs with
  | [] => Some is_pos
  | x :: t => match inv_go x is_pos with Some p => inv_all t p | None => None end
  end.
Lemma inv_and xs b : inv_go (MAnd xs) b = inv_all xs b.
Proof. cbn [inv_go]. revert b. induction xs as [|x t IH]; intros b; cbn; [reflexivity|]. destruct (inv_go x b); [apply IH|reflexivity]. Qed.

Fixpoint inv_any (xs : list meta) (is_pos out : bool) : option bool :=
  match xs with
  | [] => Some out
  | x :: t => match inv_go x is_pos with Some p => inv_any t is_pos (out || p) | None => None end
  end.
Lemma inv_or xs b : inv_go (MOr xs) b = inv_any xs b b.
Proof.
  cbn [inv_go]. generalize b at 2 4. revert b. induction xs as [|x t IH]; intros b out; cbn; [reflexivity|].
  destruct (inv_go x b); [apply IH|reflexivity].
Qed.

Definition inv_passes (b : bool) (m : meta) : Prop := exists r, inv_go m b = Some r.

Lemma inv_any_ok xs b : forall out, (exists r, inv_any xs b out = Some r) <-> Forall (inv_passes b) xs.
Proof.
  induction xs as [|x t IH]; intros out; cbn [inv_any]; [split; eauto|]. split.
  - destruct (inv_go x b) as [p|] eqn:E; [|intros [r F]; discriminate]. intros H. constructor; [exists p; exact E|]. exact (proj1 (IH _) H).
  - intros H. inversion H as [|x' t' [p Hp] Ht]; subst. rewrite Hp. exact (proj2 (IH _) Ht).
Qed.

Lemma inv_passes_alts m b : inv_passes b m -> Forall (inv_passes b) (alts m).
Proof.
  intros H. destruct m; try (constructor; [exact H|constructor]).
  - unfold inv_passes in H. rewrite inv_or in H. exact (proj1 (inv_any_ok _ _ _) H).
  - constructor.
Qed.

Lemma inv_passes_or x y b : inv_passes b x -> inv_passes b y -> inv_passes b (meta_or x y).
Proof.
  intros Hx Hy. pose proof (proj2 (Forall_app _ _ _) (conj (inv_passes_alts x b Hx) (inv_passes_alts y b Hy))) as F.
  unfold meta_or. destruct (alts x ++ alts y) as [|m [|m' t]].
  - exists b. reflexivity.
  - inversion F. assumption.
  - unfold inv_passes. rewrite inv_or. exact (proj2 (inv_any_ok _ _ _) F).
Qed.

Lemma metas_plist l : metas_of (plist_of l) = map meta_of l.
Proof. induction l as [|p t IH]; cbn; [reflexivity|]. rewrite IH. reflexivity. Qed.

Lemma inv_con l b : inv_go (con_meta (plist_of l)) b = inv_all (map meta_of l) b.
Proof.
  destruct l as [|p [|q r]]; [reflexivity|cbn; destruct (inv_go (meta_of p) b); reflexivity|].
  cbn [plist_of con_meta]. rewrite inv_and. fold (plist_of r).
  change (meta_of p :: metas_of (PCons q (plist_of r))) with (metas_of (plist_of (p :: q :: r))).
  rewrite metas_plist. reflexivity.
Qed.

Lemma inv_item it : inv_go (meta_of (compile_item it)) false = Some false.
Proof.
  destruct it as [n|n p a|n p|n|n p|n mv ty ar]; cbn [compile_item meta_of];
    try (unfold flag_item; destruct (shortlong_of n); reflexivity).
  destruct ar; cbn [meta_of with_suffix is_nil]; unfold arg_item; destruct (shortlong_of n); reflexivity.
Qed.

Lemma inv_pos p b : inv_go (meta_of (compile_pos p)) b = Some true.
Proof. unfold compile_pos. destruct (cp_par p); destruct b; reflexivity. Qed.

Lemma inv_all_items items rest :
  inv_all (map meta_of (map compile_item items) ++ rest) false = inv_all rest false.
Proof.
  induction items as [|it t IH]; cbn [map app inv_all]; [reflexivity|]. rewrite inv_item. exact IH.
Qed.

Lemma inv_all_any fs : Forall (fun p => forall b, inv_passes b (meta_of p)) fs ->
  forall b, exists r, inv_all (map meta_of fs) b = Some r.
Proof.
  induction 1 as [|p t Hp _ IH]; intros b; cbn [map inv_all]; [eauto|]. destruct (Hp b) as [r ->]. apply IH.
Qed.

Theorem invariant_compile l : inv_passes false (meta_of (compile l)).
Proof.
  apply (compile_closed (fun _ => True) (fun _ => True)
           (fun p => inv_passes false (meta_of p)) (fun p => forall b, inv_passes b (meta_of p))); auto.
  - intros p b. exists true. apply inv_pos.
  - intros x y Hx Hy b. apply inv_passes_or; auto.
  - intros name aliases sub rest _ [r Hr] b. exists true. cbn [meta_of ometa_of inv_go item_is_pos]. rewrite Hr. destruct b; reflexivity.
  - intros items tail fs _ Hfs. unfold inv_passes. cbn [meta_of]. rewrite inv_con, map_app, inv_all_items. apply inv_all_any, Hfs.
Qed.

Lemma invariant_ok_compile l : invariant_ok (meta_of (compile l)) = true.
Proof. unfold invariant_ok. destruct (invariant_compile l) as [r ->]. reflexivity. Qed.

Lemma okl_plist l : okl (plist_of l) = forallb okp l.
Proof. induction l as [|p t IH]; cbn; [reflexivity|]. rewrite IH. reflexivity. Qed.

Lemma okp_item it : named_ok (item_named it) = true -> okp (compile_item it) = true.
Proof.
  intros H. apply named_keyed in H.
  destruct it as [n|n p a|n p|n|n p|n mv ty ar]; cbn [compile_item item_named okp] in *; try exact H. destruct ar; exact H.
Qed.

Lemma okp_pos p : okp (compile_pos p) = true.
Proof. unfold compile_pos. destruct (cp_par p); reflexivity. Qed.

Lemma oko_flat items tail : flat_ok items tail -> oko (compile_options (Level items tail)) = true.
Proof.
  intros Hok. unfold compile_options. cbn [oko]. rewrite invariant_ok_compile, andb_true_r.
  destruct (compile_flat items tail Hok) as [-> _]. destruct Hok as (_ & Hn & _).
  cbn [okp]. rewrite okl_plist. apply forallb_forall. intros q Hq. apply in_app_or in Hq. destruct Hq as [Hq|Hq].
  - apply in_map_iff in Hq. destruct Hq as (it & <- & Hit). apply okp_item. rewrite Forall_forall in Hn. exact (Hn it Hit).
  - destruct tail as [|ps|cs]; try contradiction. apply in_map_iff in Hq. destruct Hq as (p & <- & _). apply okp_pos.
Qed.

(* C04 / C01: total on every vector *)
Definition normal_outcome (o : outcome) : Prop :=
  match o with OutPanic _ | OutFuel => False | _ => True end.

Theorem flat_run_total feat env items tail argv :
  flat_ok items tail ->
  normal_outcome (run_inner feat env (compile_options (Level items tail)) None argv).
Proof. intros Hok. apply TotalAll.run_total. apply oko_flat. exact Hok. Qed.

(* C03: the verdict of a flat level depends on the vector only through, for every item, the
   sequence of its own occurrences, and the sequence of positional words *)
Lemma items_values_ext items : forall k occ1 occ2,
  (forall j, occ_of j occ1 = occ_of j occ2) -> items_values items k occ1 = items_values items k occ2.
Proof.
  induction items as [|it t IH]; intros k occ1 occ2 H; cbn [items_values]; [reflexivity|].
  rewrite (H k), (IH (S k) occ1 occ2 H). reflexivity.
Qed.

Definition same_reading (a1 a2 : attribution) : Prop :=
  (forall j, occ_of j (at_occ a1) = occ_of j (at_occ a2)) /\ at_words a1 = at_words a2.

Theorem order_irrelevant_flat feat env items tail argv1 argv2 sf sa a1 a2 v :
  flat_ok items tail ->
  short_tables (compile_options (Level items tail)) = (sf, sa) ->
  t_ambiguity (tokenize sf sa argv1) = None -> t_ambiguity (tokenize sf sa argv2) = None ->
  scan items [] tail (mark_tokens (tokenize sf sa argv1)) = ScDone a1 ->
  scan items [] tail (mark_tokens (tokenize sf sa argv2)) = ScDone a2 ->
  same_reading a1 a2 ->
  denote (Level items tail) argv1 = Accept v ->
  run_inner feat env (compile_options (Level items tail)) None argv1 = OutOk v /\
  run_inner feat env (compile_options (Level items tail)) None argv2 = OutOk v.
Proof.
  intros Hok Hst A1 A2 S1 S2 [Ho Hw] Hd.
  split; [apply denote_accept_flat; assumption|]. apply denote_accept_flat; [assumption|].
  unfold denote in *. rewrite Hst in *. rewrite A1 in Hd. rewrite A2.
  cbn [denote_level] in *. rewrite S1 in Hd. rewrite S2.
  rewrite <- (items_values_ext items 0 _ _ Ho), <- Hw. exact Hd.
Qed.
