(* TokLaws.v -- laws of the tokenizer (src/arg.rs split_os_argument; the loop of State::construct in src/args.rs),
   for all byte strings. *)
From BpafLemmas Require Import Tac.

Definition no_eq (l : bytes) : Prop := forall b, In b l -> is_eq_byte b = false.

Lemma split_first_app (n v : bytes) :
  no_eq n -> split_first is_eq_byte (n ++ c_eq :: v) = (n, Some v).
Proof.
  induction n as [|b n IH]; intros Hn; cbn.
  - reflexivity.
  - rewrite (Hn b (or_introl eq_refl)). rewrite IH; [reflexivity|].
    intros x Hx. apply Hn. right. exact Hx.
Qed.

Lemma split_first_none (n : bytes) : no_eq n -> split_first is_eq_byte n = (n, None).
Proof.
  induction n as [|b n IH]; intros Hn; cbn; [reflexivity|].
  rewrite (Hn b (or_introl eq_refl)). rewrite IH; [reflexivity|].
  intros x Hx. apply Hn. right. exact Hx.
Qed.

(* --name=value : the value is every byte after the first `=`, whatever it contains *)
Theorem split_long_eq (n v : bytes) :
  no_eq n -> utf8_valid n = true ->
  split_os_argument (c_dash :: c_dash :: n ++ c_eq :: v) = Some (ATLong, n, Some v).
Proof.
  intros Hn Hu. unfold split_os_argument.
  change (negb (c_dash =? c_dash)%N) with false. cbn [negb].
  change ((c_dash =? c_dash)%N) with true. cbn match.
  rewrite split_first_app by exact Hn. unfold str_ok. rewrite Hu. reflexivity.
Qed.

Theorem split_long_plain (n : bytes) :
  no_eq n -> n <> [] -> utf8_valid n = true ->
  split_os_argument (c_dash :: c_dash :: n) = Some (ATLong, n, None).
Proof.
  intros Hn Hne Hu. unfold split_os_argument.
  change (negb (c_dash =? c_dash)%N) with false. cbn [negb].
  change ((c_dash =? c_dash)%N) with true. cbn match.
  rewrite split_first_none by exact Hn. unfold str_ok. rewrite Hu.
  destruct n; [congruence|reflexivity].
Qed.

Theorem split_short_plain (c : N) :
  (c <? 128)%N = true -> (c =? c_dash)%N = false ->
  split_os_argument [c_dash; c] = Some (ATShort, [c], None).
Proof.
  intros Hc Hd. unfold split_os_argument.
  change (negb (c_dash =? c_dash)%N) with false. cbn [negb]. rewrite Hd.
  cbn [split_first]. unfold str_ok, utf8_valid. cbn [utf8_decode]. rewrite Hc. reflexivity.
Qed.

(* short names of any character: the name is the first CHARACTER, as long as its lead byte says *)
(* the ranges are those utf8_decode tests the lead byte against *)
Lemma utf8_first_len_spec b :
  ((b <? 128)%N = true -> utf8_first_len b = 1) /\
  ((194 <=? b)%N && (b <=? 223)%N = true -> utf8_first_len b = 2) /\
  ((224 <=? b)%N && (b <=? 239)%N = true -> utf8_first_len b = 3) /\
  ((240 <=? b)%N && (b <=? 244)%N = true -> utf8_first_len b = 4).
Proof.
  unfold utf8_first_len. repeat split; intros H;
    [apply N.ltb_lt in H|apply andb_prop in H; destruct H as [H1 H2]; apply N.leb_le in H1; apply N.leb_le in H2..].
  - rewrite (proj2 (N.ltb_lt b 192)) by lia. reflexivity.
  - rewrite (proj2 (N.ltb_ge b 192)), (proj2 (N.ltb_lt b 224)) by lia. reflexivity.
  - rewrite (proj2 (N.ltb_ge b 192)), (proj2 (N.ltb_ge b 224)), (proj2 (N.ltb_lt b 240)) by lia. reflexivity.
  - rewrite (proj2 (N.ltb_ge b 192)), (proj2 (N.ltb_ge b 224)), (proj2 (N.ltb_ge b 240)) by lia. reflexivity.
Qed.

Lemma high_not_eq b : (128 <= b)%N -> is_eq_byte b = false.
Proof. unfold is_eq_byte, c_eq. intros H. apply N.eqb_neq. intros ->. exact (H eq_refl). Qed.

Lemma cont_high b : is_cont b = true -> (128 <= b)%N.
Proof. unfold is_cont. intros H. apply andb_prop in H. destruct H as [H _]. apply N.leb_le, H. Qed.

Lemma option_map_cons_inv {A} (x c : A) o cs : option_map (cons x) o = Some (c :: cs) -> o = Some cs.
Proof. destruct o; cbn; intros H; inversion H; reflexivity. Qed.

(* one decoding step: the lead byte is followed by the continuation bytes its length announces, each of them >= 128 (so none is `=`) *)
Lemma utf8_decode_cons b0 t0 c cs :
  utf8_decode (b0 :: t0) = Some (c :: cs) ->
  exists k rest, t0 = k ++ rest /\ utf8_decode rest = Some cs /\
                 S (length k) = utf8_first_len b0 /\ (forall b, In b k -> (128 <= b)%N).
Proof.
  cbn [utf8_decode]. intros H. pose proof (utf8_first_len_spec b0) as (F1 & F2 & F3 & F4).
  destruct (b0 <? 128)%N eqn:A1.
  { exists [], t0. apply option_map_cons_inv in H.
    repeat split; [exact H|symmetry; exact (F1 eq_refl)|intros b []]. }
  destruct ((194 <=? b0)%N && (b0 <=? 223)%N) eqn:A2.
  { destruct t0 as [|b1 t1]; [discriminate|]. destruct (is_cont b1) eqn:C1; [|discriminate].
    exists [b1], t1. apply option_map_cons_inv in H.
    repeat split; [exact H|symmetry; exact (F2 eq_refl)|]. intros b [<-|[]]. apply cont_high, C1. }
  destruct ((224 <=? b0)%N && (b0 <=? 239)%N) eqn:A3.
  { destruct t0 as [|b1 [|b2 t2]]; try discriminate.
    match type of H with (if ?x then _ else _) = _ => destruct x eqn:C end; [|discriminate].
    apply andb_prop in C. destruct C as [C C2]. apply andb_prop in C. destruct C as [Clo _].
    exists [b1; b2], t2. apply option_map_cons_inv in H.
    repeat split; [exact H|symmetry; exact (F3 eq_refl)|]. intros b [<-|[<-|[]]]; [|apply cont_high, C2].
    apply N.leb_le in Clo. destruct (b0 =? 224)%N; [|exact Clo]. eapply N.le_trans; [|exact Clo]. discriminate. }
  destruct ((240 <=? b0)%N && (b0 <=? 244)%N) eqn:A4; [|discriminate].
  destruct t0 as [|b1 [|b2 [|b3 t3]]]; try discriminate.
  match type of H with (if ?x then _ else _) = _ => destruct x eqn:C end; [|discriminate].
  apply andb_prop in C. destruct C as [C C3]. apply andb_prop in C. destruct C as [C C2].
  apply andb_prop in C. destruct C as [Clo _].
  exists [b1; b2; b3], t3. apply option_map_cons_inv in H.
  repeat split; [exact H|symmetry; exact (F4 eq_refl)|]. intros b [<-|[<-|[<-|[]]]]; [|apply cont_high, C2|apply cont_high, C3].
  apply N.leb_le in Clo. destruct (b0 =? 240)%N; [|exact Clo]. eapply N.le_trans; [|exact Clo]. discriminate.
Qed.

Lemma utf8_decode_nil t : utf8_decode t = Some [] -> t = [].
Proof.
  destruct t as [|b0 t0]; [reflexivity|]. cbn [utf8_decode]. intros H. exfalso.
  repeat match type of H with
         | (if ?c then _ else _) = _ => destruct c
         | match ?x with _ => _ end = _ => destruct x
         | option_map _ ?o = _ => destruct o; cbn [option_map] in H
         end; discriminate.
Qed.

Lemma one_char_shape (n : bytes) (ch : char) :
  utf8_decode n = Some [ch] ->
  exists b0 t, n = b0 :: t /\ length n = utf8_first_len b0 /\ no_eq t.
Proof.
  destruct n as [|b0 t0]; [discriminate|]. intros Hu. exists b0, t0. split; [reflexivity|].
  destruct (utf8_decode_cons _ _ _ _ Hu) as (k & rest & -> & Hr & Hl & Hk).
  apply utf8_decode_nil in Hr. subst rest. rewrite app_nil_r. split; [exact Hl|].
  intros b Hb. apply high_not_eq, Hk, Hb.
Qed.

(* -Xvalue=more for a name X of one character (1 to 4 bytes): everything after the CHARACTER is the value, `=`
   included; with nothing between the name and the `=` (`-X=value`) the value is what follows the `=` *)
Theorem split_short_char (n v1 v2 : bytes) (ch : char) :
  utf8_decode n = Some [ch] -> (hd 0%N n =? c_dash)%N = false -> no_eq v1 ->
  split_os_argument (c_dash :: n ++ v1 ++ c_eq :: v2) =
  Some (ATShort, n, Some (match v1 with [] => v2 | _ => v1 ++ c_eq :: v2 end)).
Proof.
  intros Hu Hd Hn.
  assert (Hv : str_ok n = true) by (unfold str_ok, utf8_valid; rewrite Hu; reflexivity).
  destruct (one_char_shape n ch Hu) as (b0 & t & -> & Hl & Ht). cbn [hd] in Hd.
  unfold split_os_argument. cbn [app]. change (negb (c_dash =? c_dash)%N) with false. cbn [negb]. rewrite Hd.
  rewrite app_assoc. rewrite split_first_app.
  2:{ intros b Hb. apply in_app_or in Hb. destruct Hb; auto. }
  change (b0 :: t ++ v1) with ((b0 :: t) ++ v1). rewrite <- Hl, app_length.
  destruct v1 as [|b v1].
  - rewrite app_nil_r, Nat.add_0_r, Nat.min_id, Nat.ltb_irrefl, Hv. reflexivity.
  - rewrite Nat.min_l by lia.
    assert (Hlt : Nat.ltb (length (b0 :: t)) (length (b0 :: t) + length (b :: v1)) = true)
      by (apply Nat.ltb_lt; cbn [length]; lia).
    rewrite Hlt, firstn_app, Nat.sub_diag, firstn_all, skipn_app, Nat.sub_diag, skipn_all.
    cbn [firstn skipn app]. rewrite app_nil_r, Hv. reflexivity.
Qed.

Theorem split_short_eq_char (n v : bytes) (ch : char) :
  utf8_decode n = Some [ch] -> (hd 0%N n =? c_dash)%N = false ->
  split_os_argument (c_dash :: n ++ c_eq :: v) = Some (ATShort, n, Some v).
Proof. intros Hu Hd. apply (split_short_char n [] v ch Hu Hd). intros b []. Qed.

Theorem split_short_adj_eq_char (n v1 v2 : bytes) (ch : char) :
  utf8_decode n = Some [ch] -> (hd 0%N n =? c_dash)%N = false -> no_eq v1 -> v1 <> [] ->
  split_os_argument (c_dash :: n ++ v1 ++ c_eq :: v2) = Some (ATShort, n, Some (v1 ++ c_eq :: v2)).
Proof.
  intros Hu Hd Hn Hne. rewrite (split_short_char n v1 v2 ch Hu Hd Hn). destruct v1; [congruence|reflexivity].
Qed.

Lemma ascii_one_char c : (c <? 128)%N = true -> utf8_decode [c] = Some [c].
Proof. intros Hc. cbn [utf8_decode]. rewrite Hc. reflexivity. Qed.

Theorem split_short_eq (c : N) (v : bytes) :
  (c <? 128)%N = true -> (c =? c_dash)%N = false ->
  split_os_argument (c_dash :: c :: c_eq :: v) = Some (ATShort, [c], Some v).
Proof. intros Hc Hd. exact (split_short_eq_char [c] v c (ascii_one_char c Hc) Hd). Qed.

Theorem split_short_adj_eq (c : N) (v1 v2 : bytes) :
  (c <? 128)%N = true -> (c =? c_dash)%N = false -> no_eq v1 -> v1 <> [] ->
  split_os_argument (c_dash :: c :: v1 ++ c_eq :: v2) = Some (ATShort, [c], Some (v1 ++ c_eq :: v2)).
Proof. intros Hc Hd. exact (split_short_adj_eq_char [c] v1 v2 c (ascii_one_char c Hc) Hd). Qed.

(* a two-byte name: `-ж=1` *)
Example split_short_eq_cyrillic :
  split_os_argument [45; 208; 182; 61; 49]%N = Some (ATShort, [208; 182]%N, Some [49%N]).
Proof. vm_compute. reflexivity. Qed.

(* items that do not start with a dash, the lone dash, and the empty string are never names *)
Theorem split_plain_word (w : bytes) :
  match w with b :: _ :: _ => (b =? c_dash)%N = false | _ => True end ->
  split_os_argument w = None.
Proof.
  destruct w as [|b [|b2 w]]; intros H; cbn; try reflexivity. rewrite H. reflexivity.
Qed.

Lemma tok_go_pos_only sf sa argv acc marker :
  tok_go sf sa argv true acc marker = mkTok (rev acc ++ map PosWord argv) marker None.
Proof.
  revert acc. induction argv as [|os more IH]; intros acc; cbn [tok_go map].
  - rewrite app_nil_r. reflexivity.
  - rewrite IH. cbn [rev]. rewrite <- app_assoc. reflexivity.
Qed.

(* an item that tokenizes by itself contributes the same tokens wherever it stands (left of `--`) *)
Definition item_tokens (sf sa : list char) (os : bytes) : option (list arg) :=
  match split_os_argument os with
  | Some (ATShort, short, None) =>
    match utf8_decode short with
    | None => None
    | Some cs => match disambiguate_short sf sa os cs with DisOk pushed => Some pushed | DisAmbig _ => None end
    end
  | Some (ATShort, short, Some body) =>
    match utf8_decode short with
    | Some (c :: _) => Some [Short c true os; ArgWord body]
    | _ => None
    end
  | Some (ATLong, long, Some body) => Some [Long long true os; ArgWord body]
  | Some (ATLong, long, None) => Some [Long long false os]
  | None => if beqb os dashdash then None else Some [Word os]
  end.

Lemma tok_go_step sf sa os more acc marker toks :
  item_tokens sf sa os = Some toks ->
  tok_go sf sa (os :: more) false acc marker = tok_go sf sa more false (rev toks ++ acc) marker.
Proof.
  unfold item_tokens. cbn [tok_go].
  destruct (split_os_argument os) as [[[ty nm] body]|].
  - destruct ty, body as [body|].
    + destruct (utf8_decode nm) as [[|c cs]|]; try discriminate. intros H; inv H. reflexivity.
    + destruct (utf8_decode nm) as [cs|]; try discriminate.
      destruct (disambiguate_short sf sa os cs); try discriminate. intros H; inv H. reflexivity.
    + intros H; inv H. reflexivity.
    + intros H; inv H. reflexivity.
  - destruct (beqb os dashdash); try discriminate. intros H; inv H. reflexivity.
Qed.

Lemma tok_go_dashdash sf sa more acc marker :
  tok_go sf sa (dashdash :: more) false acc marker =
  mkTok (rev acc ++ PosWord dashdash :: map PosWord more) (Some (length acc)) None.
Proof.
  cbn [tok_go]. change (split_os_argument dashdash) with (@None (argtype * bytes * option bytes)).
  change (beqb dashdash dashdash) with true. cbn match.
  rewrite tok_go_pos_only. cbn [rev]. rewrite <- app_assoc. reflexivity.
Qed.

(* C09/C02: tokens of  pre ++ [--] ++ post  when every item of pre tokenizes by itself *)
Fixpoint pre_tokens (sf sa : list char) (pre : list bytes) : option (list arg) :=
  match pre with
  | [] => Some []
  | os :: t =>
    match item_tokens sf sa os, pre_tokens sf sa t with
    | Some a, Some b => Some (a ++ b)
    | _, _ => None
    end
  end.

Lemma tok_go_pre sf sa pre rest acc marker toks :
  pre_tokens sf sa pre = Some toks ->
  tok_go sf sa (pre ++ rest) false acc marker = tok_go sf sa rest false (rev toks ++ acc) marker.
Proof.
  revert acc toks. induction pre as [|os t IH]; intros acc toks H; cbn in H.
  - inv H. reflexivity.
  - destruct (item_tokens sf sa os) as [a|] eqn:Ha; [|discriminate].
    destruct (pre_tokens sf sa t) as [b|] eqn:Hb; [|discriminate]. inv H.
    cbn [app]. rewrite (tok_go_step _ _ _ _ _ _ _ Ha). rewrite (IH _ _ eq_refl).
    rewrite rev_app_distr, <- app_assoc. reflexivity.
Qed.

Theorem tokenize_dashdash sf sa pre post toks :
  pre_tokens sf sa pre = Some toks ->
  tokenize sf sa (pre ++ dashdash :: post) =
  mkTok (toks ++ PosWord dashdash :: map PosWord post) (Some (length toks)) None.
Proof.
  intros H. unfold tokenize. rewrite (tok_go_pre _ _ _ _ _ _ _ H).
  rewrite tok_go_dashdash. rewrite app_nil_r, rev_involutive, rev_length. reflexivity.
Qed.

Theorem tokenize_no_dashdash sf sa pre toks :
  pre_tokens sf sa pre = Some toks ->
  tokenize sf sa pre = mkTok toks None None.
Proof.
  intros H. unfold tokenize. rewrite <- (app_nil_r pre). rewrite (tok_go_pre _ _ _ _ _ _ _ H).
  cbn. rewrite app_nil_r, rev_involutive. reflexivity.
Qed.

(* tokens are a homomorphism on vectors whose items tokenize by themselves: this is what makes
   moving or replacing one whole occurrence a local change of the token list (C02, C03) *)
Theorem pre_tokens_app sf sa a b ta tb :
  pre_tokens sf sa a = Some ta -> pre_tokens sf sa b = Some tb ->
  pre_tokens sf sa (a ++ b) = Some (ta ++ tb).
Proof.
  revert ta. induction a as [|os t IH]; intros ta Ha Hb; cbn in *.
  - inv Ha. exact Hb.
  - destruct (item_tokens sf sa os) as [x|]; [|discriminate].
    destruct (pre_tokens sf sa t) as [y|] eqn:Hy; [|discriminate]. inv Ha.
    rewrite (IH _ eq_refl Hb). rewrite app_assoc. reflexivity.
Qed.

(* -abc with every letter a declared flag that is not also an argument = -a -b -c, up to the
   original-text payload of the first token *)
Lemma dis_go_flags sf sa os cs first ff acc :
  (forall c, In c cs -> mem_N c sf = true /\ mem_N c sa = false) ->
  (first = true -> length cs >= 2) ->
  dis_go sf sa os cs first ff acc =
  DisOk (rev acc ++ match cs with
                    | [] => []
                    | c :: t => Short c false ff :: map (fun c => Short c false []) t
                    end).
Proof.
  revert first ff acc. induction cs as [|c rest IH]; intros first ff acc Hall Hlen; cbn [dis_go].
  - rewrite app_nil_r. reflexivity.
  - match goal with |- context [if ?c then _ else _] => assert (Hf : c = false) end.
    { destruct first; [|reflexivity]. specialize (Hlen eq_refl). destruct rest; cbn in *; [lia|reflexivity]. }
    rewrite Hf. destruct (Hall c (or_introl eq_refl)) as [H1 H2]. rewrite H1, H2.
    rewrite IH.
    + cbn [rev]. rewrite <- app_assoc. cbn [app]. f_equal. f_equal.
      destruct rest; reflexivity.
    + intros x Hx. apply Hall. right. exact Hx.
    + discriminate.
Qed.

Theorem cluster_tokens sf sa os cs :
  (forall c, In c cs -> mem_N c sf = true /\ mem_N c sa = false) -> length cs >= 2 ->
  disambiguate_short sf sa os cs =
  DisOk (match cs with
         | [] => []
         | c :: t => Short c false os :: map (fun c => Short c false []) t
         end).
Proof.
  intros Hall Hlen. unfold disambiguate_short. rewrite dis_go_flags; auto.
Qed.

(* What the tokenizer records as the original text of a key token (`-x`, `--name`): the command-line item it came
   from, which starts with a dash, or nothing (later members of a cluster of short flags).  A command name is
   compared with that text, so a key token is never taken for a command whose name is non-empty and does not
   start with a dash. *)
Definition dash_or_nil (os : bytes) : Prop := os = [] \/ exists t, os = c_dash :: t.

Definition key_os_ok (a : arg) : Prop :=
  match a with Short _ _ os | Long _ _ os => dash_or_nil os | _ => True end.

Lemma split_dash os r : split_os_argument os = Some r -> exists t, os = c_dash :: t.
Proof.
  unfold split_os_argument. destruct os as [|d0 [|second rest]]; try discriminate.
  destruct (negb (d0 =? c_dash)%N) eqn:E; [discriminate|]. intros _.
  apply negb_false_iff in E. apply N.eqb_eq in E. subst d0. eauto.
Qed.

Lemma dis_go_ok sf sa os cs : forall first ff acc,
  dash_or_nil os -> dash_or_nil ff -> Forall key_os_ok acc ->
  match dis_go sf sa os cs first ff acc with DisOk l | DisAmbig l => Forall key_os_ok l end.
Proof.
  induction cs as [|c rest IH]; intros first ff acc Ho Hf Ha; cbn [dis_go].
  - apply Forall_rev. exact Ha.
  - destruct (first && is_nil rest).
    + apply Forall_rev. constructor; [exact Hf|exact Ha].
    + destruct (mem_N c sf), (mem_N c sa).
      * apply Forall_rev. constructor; [exact I|exact Ha].
      * apply IH; [exact Ho|left; reflexivity|constructor; [exact Hf|exact Ha]].
      * destruct (negb (is_nil rest)); apply Forall_rev.
        -- constructor; [exact I|]. constructor; [exact Ho|exact Ha].
        -- constructor; [exact Ho|exact Ha].
      * constructor; [exact I|constructor].
Qed.

Lemma tok_go_ok sf sa argv : forall pos_only acc marker,
  Forall key_os_ok acc -> Forall key_os_ok (t_items (tok_go sf sa argv pos_only acc marker)).
Proof.
  induction argv as [|os more IH]; intros pos_only acc marker Ha; cbn [tok_go].
  - cbn. apply Forall_rev. exact Ha.
  - destruct pos_only; [apply IH; constructor; [exact I|exact Ha]|].
    destruct (split_os_argument os) as [[[ty nm] body]|] eqn:E.
    + destruct (split_dash os _ E) as [t Et].
      assert (Ho : dash_or_nil os) by (right; eauto).
      destruct ty; destruct body as [body|].
      * destruct (utf8_decode nm) as [[|c cs]|]; try (cbn; apply Forall_rev; exact Ha).
        apply IH. constructor; [exact I|]. constructor; [exact Ho|exact Ha].
      * destruct (utf8_decode nm) as [cs|]; [|cbn; apply Forall_rev; exact Ha].
        pose proof (dis_go_ok sf sa os cs true os [] Ho Ho (Forall_nil _)) as Hd.
        unfold disambiguate_short. destruct (dis_go sf sa os cs true os []) as [l|l].
        -- apply IH. apply Forall_app. split; [apply Forall_rev; exact Hd|exact Ha].
        -- cbn. apply Forall_rev. apply Forall_app. split; [apply Forall_rev; exact Hd|exact Ha].
      * apply IH. constructor; [exact I|]. constructor; [exact Ho|exact Ha].
      * apply IH. constructor; [exact Ho|exact Ha].
    + destruct (beqb os dashdash); apply IH; constructor; try exact I; exact Ha.
Qed.

Theorem tokenize_os_ok sf sa argv : Forall key_os_ok (t_items (tokenize sf sa argv)).
Proof. apply tok_go_ok. constructor. Qed.

(* the tokenizer's own message, MsgAmbiguity, records a position of the line and a cluster of at least two characters *)
Lemma dis_go_ambig sf sa os : forall cs first ff acc p,
  dis_go sf sa os cs first ff acc = DisAmbig p -> p <> [] /\ (first = true -> exists f sc r, cs = f :: sc :: r).
Proof.
  induction cs as [|c rest IH]; intros first ff acc p H; cbn [dis_go] in H; [discriminate|].
  destruct (first && is_nil rest) eqn:Fn; [discriminate|].
  assert (Hshape : first = true -> exists f sc r, c :: rest = f :: sc :: r).
  { intros ->. destruct rest as [|sc r]; [discriminate Fn|eauto]. }
  destruct (mem_N c sf), (mem_N c sa).
  - inversion H; subst. split; [|exact Hshape]. intros E. cbn [rev] in E. apply app_eq_nil in E. destruct E; discriminate.
  - apply IH in H. split; [tauto|exact Hshape].
  - destruct (negb (is_nil rest)); discriminate.
  - discriminate.
Qed.

Lemma tok_go_ambig sf sa : forall argv pos_only acc marker ix short,
  t_ambiguity (tok_go sf sa argv pos_only acc marker) = Some (ix, short) ->
  ix < length (t_items (tok_go sf sa argv pos_only acc marker)) /\
  exists f sc r, utf8_decode short = Some (f :: sc :: r).
Proof.
  induction argv as [|os more IH]; intros pos_only acc marker ix short; cbn [tok_go]; [discriminate|].
  destruct pos_only; [apply IH|].
  destruct (split_os_argument os) as [[[[] nm] [body|]]|].
  - destruct (utf8_decode nm) as [[|c ?]|]; try discriminate. apply IH.
  - destruct (utf8_decode nm) as [cs|] eqn:U; [|discriminate].
    destruct (disambiguate_short sf sa os cs) as [pushed|pushed] eqn:D; [apply IH|].
    cbn [t_ambiguity t_items]. intros H; inversion H; subst.
    unfold disambiguate_short in D. apply dis_go_ambig in D. destruct D as [Hp Hs].
    split.
    + rewrite rev_length, app_length, rev_length. destruct pushed; [congruence|cbn; lia].
    + destruct (Hs eq_refl) as (f & sc & r & ->). eauto.
  - apply IH.
  - apply IH.
  - destruct (beqb os dashdash); apply IH.
Qed.
