(* CmdLaws.v -- entering a subcommand (C08): what State::take_cmd looks at, what ParseCommand::eval of a command
   that is not `adjacent` does once entered, and how the inner outcome travels outward. *)
From BpafLemmas Require Import Tac Reach Ledger NoLoss.

Definition cmd_token (a : arg) (word : bytes) : bool :=
  match a with
  | Word w | Short _ _ w | Long _ false w => beqb w word
  | _ => false
  end.

Lemma cmd_token_is_cmd a word : cmd_token a word = is_cmd word a.
Proof. reflexivity. Qed.

(* the name must be the FIRST live item of the scope; nothing else is looked at *)
Theorem take_cmd_spec word s :
  take_cmd word s =
  match first_item_ix s with
  | Some ix =>
    match nth_error (items s) ix with
    | Some a => if cmd_token a word
                then (true, set_current (sremove (KCmd word) ix s) (Some ix))
                else (false, set_current s None)
    | None => (false, set_current s None)
    end
  | None => (false, set_current s None)
  end.
Proof.
  rewrite take_cmd_eq. destruct (first_item_ix s) as [ix|]; [|reflexivity].
  destruct (nth_error (items s) ix) as [a|]; [rewrite cmd_token_is_cmd|]; reflexivity.
Qed.

Theorem take_cmd_needs_first word s s1 :
  lenwf s -> take_cmd word s = (true, s1) ->
  exists ix a, first_item_ix s = Some ix /\ nth_error (items s) ix = Some a /\ cmd_token a word = true /\
               (forall i, in_scope s i = true -> live s i -> ix <= i) /\
               s1 = set_current (sremove (KCmd word) ix s) (Some ix).
Proof.
  intros Hw H. rewrite take_cmd_spec in H.
  destruct (first_item_ix s) as [ix|] eqn:Hf; [|inv H].
  destruct (nth_error (items s) ix) as [a|] eqn:Ha; [|inv H].
  destruct (cmd_token a word) eqn:Hc; inv H.
  destruct (first_item_first _ _ Hw Hf) as [_ Hfirst].
  exists ix, a. auto.
Qed.

(* a PosWord / ArgWord / attached long is never a command name *)
Theorem cmd_token_shapes a word :
  cmd_token a word = true ->
  match a with
  | Word _ | Short _ _ _ | Long _ false _ => True
  | _ => False
  end.
Proof. destruct a as [c adj w|nm adj w|w|w|w]; cbn; try discriminate; auto. destruct adj; auto; discriminate. Qed.

(* a command that is not `adjacent`, once entered: the inner OptionParser runs on the window that starts at the
   name and keeps the old end, with the path extended; its value is the command's value, its failure is final *)
Theorem cmd_enter name aliases shorts help m_sub i_sub run s s1 cur s2 :
  take_cmd_any ((name :: aliases) ++ map utf8_encode_char shorts) s = (true, s1) ->
  current s1 = Some cur -> set_scope s1 cur (sc_end s1) = Some s2 ->
  cmd_body name aliases shorts help false m_sub i_sub run s =
  match run (set_path s2 (path s2 ++ [name])) with
  | (SOk v, s4) => (ROk v, s4)
  | (SFail f, s4) => (RErr (MsgParseFailure f), s4)
  | (SPanic w, s4) => (RPanic w, s4)
  | (SFuel, s4) => (RFuel, s4)
  end.
Proof.
  intros Ht Hc Hs. rewrite cmd_body_eq, Ht. unfold cmd_entered. rewrite Hc, Hs. unfold lift_run.
  destruct (run _) as [[] s4]; reflexivity.
Qed.

Theorem cmd_not_entered name aliases shorts help adjacent m_sub i_sub run s s1 :
  take_cmd_any ((name :: aliases) ++ map utf8_encode_char shorts) s = (false, s1) ->
  exists m, cmd_body name aliases shorts help adjacent m_sub i_sub run s = (RErr (MsgMissing m), s1).
Proof. intros Ht. rewrite cmd_body_eq, Ht. unfold missing_msg. eauto. Qed.

(* the inner outcome (help, version, or an error already rendered for the subcommand) is final:
   no wrapper may catch it and combining it with any other error keeps it *)
Theorem inner_failure_final f :
  can_catch (MsgParseFailure f) = false /\
  (forall e, combine_with (MsgParseFailure f) e = MsgParseFailure f) /\
  (forall e, (forall g, e <> MsgParseFailure g) -> combine_with e (MsgParseFailure f) = MsgParseFailure f).
Proof.
  split; [reflexivity|]. split.
  - intros e. reflexivity.
  - intros e He. destruct e; try reflexivity. exfalso. eapply He; eauto.
Qed.

(* ... and run_subparser of the ENCLOSING level hands an inner help/version straight through *)
Theorem inner_stdout_propagates env inf m s h s1 :
  run_sub_body env inf m s (RErr (MsgParseFailure (FStdout h)), s1) = (SFail (FStdout h), s1).
Proof. rewrite run_sub_body_eq. reflexivity. Qed.

(* the leftover check: an inner parser that succeeds but leaves a live item in its window never gives the level a
   value -- the level answers with help or version if the flag is among the leftovers, with `Unconsumed` otherwise *)
Theorem leftover_fails env inf m s v s1 ix :
  first_item_ix s1 = Some ix ->
  forall v' s', run_sub_body env inf m s (ROk v, s1) <> (SOk v', s').
Proof.
  intros Hf v' s' H. apply run_sub_body_ok in H. destruct H as (_ & _ & H). congruence.
Qed.
