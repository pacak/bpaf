(* DeriveLaws.v -- facts about the derive rules (C17): kebab-case naming; each annotation of a field
   changes its own part of the plan only; the implicit rules by field type; the doc comment blocks of
   an `options` type. *)
From Coq Require Import Lia.
From BpafModel Require Import Derive.
Import ListNotations.

Definition kebab_char_ok (c : N) : bool := negb (is_upper c) && negb (c =? c_us)%N.

Lemma to_lower_not_upper c : is_upper c = true -> kebab_char_ok (to_lower c) = true.
Proof.
  unfold kebab_char_ok, to_lower, is_upper, c_us. intros H. rewrite H.
  apply andb_prop in H. destruct H as [H1 H2]. apply N.leb_le in H1. apply N.leb_le in H2.
  apply andb_true_intro. split; apply negb_true_iff.
  - apply andb_false_iff. right. apply N.leb_gt. lia.
  - apply N.eqb_neq. lia.
Qed.

(* the derived long name never contains an upper-case ASCII letter or an underscore *)
Theorem kebab_alphabet s : forall b, forallb kebab_char_ok (kebab_go s b) = true.
Proof.
  induction s as [|c t IH]; intros b; cbn [kebab_go]; [reflexivity|].
  destruct (is_upper c) eqn:U.
  - rewrite forallb_app. cbn [forallb]. rewrite (to_lower_not_upper c U), IH.
    destruct b; reflexivity.
  - destruct ((c =? c_hy)%N || (c =? c_us)%N) eqn:E; cbn [forallb]; rewrite IH, andb_true_r.
    + reflexivity.
    + unfold kebab_char_ok. rewrite U. apply orb_false_iff in E. destruct E as [_ E]. rewrite E. reflexivity.
Qed.

Lemma kebab_fixed s : forallb kebab_char_ok s = true -> forall b, kebab_go s b = s.
Proof.
  induction s as [|c t IH]; intros H b; [reflexivity|].
  cbn [forallb] in H. apply andb_prop in H. destruct H as [Hc Ht].
  unfold kebab_char_ok in Hc. apply andb_prop in Hc. destruct Hc as [Hu Hs].
  apply negb_true_iff in Hu. apply negb_true_iff in Hs.
  cbn [kebab_go]. rewrite Hu, Hs, orb_false_r.
  destruct (c =? c_hy)%N eqn:E.
  - apply N.eqb_eq in E. subst c. rewrite (IH Ht). reflexivity.
  - rewrite (IH Ht). reflexivity.
Qed.

Theorem kebab_idempotent s : to_kebab_case (to_kebab_case s) = to_kebab_case s.
Proof. unfold to_kebab_case. apply kebab_fixed. apply kebab_alphabet. Qed.

(* two different snake_case field names never get the same long name *)
Definition snake_char (c : N) : bool := negb (is_upper c) && negb (c =? c_hy)%N.

Lemma kebab_go_snake c t b : snake_char c = true ->
  kebab_go (c :: t) b = (if (c =? c_us)%N then c_hy else c) :: kebab_go t false /\ (c =? c_hy)%N = false.
Proof.
  unfold snake_char. intros H. apply andb_prop in H. destruct H as [U Hy].
  apply negb_true_iff in U. apply negb_true_iff in Hy.
  cbn [kebab_go]. rewrite U, Hy. destruct (c =? c_us)%N; auto.
Qed.

Theorem kebab_snake_injective a : forall b ba bb,
  forallb snake_char a = true -> forallb snake_char b = true ->
  kebab_go a ba = kebab_go b bb -> a = b.
Proof.
  induction a as [|x a IH]; intros [|y b] ba bb Ha Hb E; cbn [forallb] in Ha, Hb.
  - reflexivity.
  - apply andb_prop in Hb. destruct Hb as [Hy _]. destruct (kebab_go_snake y b bb Hy) as [Ey _].
    rewrite Ey in E. discriminate.
  - apply andb_prop in Ha. destruct Ha as [Hx _]. destruct (kebab_go_snake x a ba Hx) as [Ex _].
    rewrite Ex in E. discriminate.
  - apply andb_prop in Ha. destruct Ha as [Hx Ha]. destruct (kebab_go_snake x a ba Hx) as [Ex Nx].
    apply andb_prop in Hb. destruct Hb as [Hy Hb]. destruct (kebab_go_snake y b bb Hy) as [Ey Ny].
    rewrite Ex, Ey in E. injection E as E1 E2. f_equal; [|exact (IH b _ _ Ha Hb E2)].
    (* the only character sent to `-` is `_`, since `-` itself does not occur *)
    destruct (N.eqb_spec x c_us), (N.eqb_spec y c_us); subst; try reflexivity.
    + rewrite N.eqb_refl in Ny. discriminate.
    + rewrite N.eqb_refl in Nx. discriminate.
Qed.

(* derive_field settles the consumer, then the names (which depend on the consumer); the
   environment variables, the postprocessing and the help text are copied from the field *)
Definition cons_of (fd : fielddef) : option consumer :=
  let name_present := match fd_ident fd with Some _ => true | None => false end || existsb is_naming (fd_names fd) in
  match fd_cons fd with
  | Some a => Some (cons_of_ann a)
  | None => derive_consumer name_present (fd_shape fd)
  end.

Definition names_of (fd : fielddef) (k : consumer) : option (list N * list bytes) :=
  match resolve_names (fd_ident fd) (fd_names fd) with
  | None => None
  | Some (sh, lo) =>
    match needs_name k, existsb is_naming (fd_names fd) with
    | true, true | false, false => Some (sh, lo)
    | true, false =>
      match fd_ident fd with
      | Some i => if Nat.eqb (length i) 1 then match to_kebab_case i with c :: _ => Some ([c], []) | [] => None end
                  else Some ([], [to_kebab_case i])
      | None => None
      end
    | false, true => None
    end
  end.

Definition post_of (fd : fielddef) : list post :=
  match fd_shape fd with ShOptional => [PoOptional] | ShMultiple => [PoMany] | _ => [] end ++
  (if fd_fallback fd then [PoFallback] else []).

Lemma derive_field_parts fd :
  derive_field fd =
  match cons_of fd with
  | None => None
  | Some k =>
    match names_of fd k with
    | None => None
    | Some (sh, lo) => Some (mkPlan sh lo (envs_of (fd_names fd)) k (post_of fd) (fd_help fd))
    end
  end.
Proof.
  unfold derive_field, cons_of, names_of. cbv zeta.
  destruct (match fd_cons fd with Some a => _ | None => _ end) as [k|]; [|reflexivity].
  destruct (resolve_names (fd_ident fd) (fd_names fd)) as [[sh lo]|]; reflexivity.
Qed.

(* for a named field, naming annotations change the names and nothing else *)
Theorem names_only_names i sh ns ns' c fb h p p' :
  derive_field (mkField (Some i) sh ns c fb h) = Some p ->
  derive_field (mkField (Some i) sh ns' c fb h) = Some p' ->
  pl_cons p = pl_cons p' /\ pl_post p = pl_post p' /\ pl_help p = pl_help p'.
Proof.
  rewrite !derive_field_parts.
  (* the field has a name whatever its annotations, so the consumer is the same *)
  change (cons_of (mkField (Some i) sh ns' c fb h)) with (cons_of (mkField (Some i) sh ns c fb h)).
  destruct (cons_of _) as [k|]; [|discriminate].
  destruct (names_of _ k) as [[s1 l1]|]; [|discriminate].
  destruct (names_of _ k) as [[s2 l2]|]; [|discriminate].
  intros H1 H2. inversion H1. inversion H2. auto.
Qed.

(* the doc comment only becomes the help text *)
Theorem help_only_help i sh ns c fb h h' p :
  derive_field (mkField i sh ns c fb h) = Some p ->
  derive_field (mkField i sh ns c fb h') =
    Some (mkPlan (pl_short p) (pl_long p) (pl_env p) (pl_cons p) (pl_post p) h').
Proof.
  rewrite !derive_field_parts.
  change (cons_of (mkField i sh ns c fb h')) with (cons_of (mkField i sh ns c fb h)).
  destruct (cons_of _) as [k|]; [|discriminate].
  change (names_of (mkField i sh ns c fb h') k) with (names_of (mkField i sh ns c fb h) k).
  destruct (names_of _ k) as [[s l]|]; [|discriminate].
  intros H. inversion H. reflexivity.
Qed.

(* implicit rules by field type, for a field `name: T` without annotations; a name of one character
   becomes a short name instead, hence the premise *)
Theorem implicit_rules i sh :
  (2 <= length i)%nat ->
  derive_field (mkField (Some i) sh [] None false None) =
  Some (mkPlan [] [to_kebab_case i] []
               (match sh with ShBool => KSwitch | ShUnit => KReqFlagK | _ => KArgumentK default_metavar end)
               (match sh with ShOptional => [PoOptional] | ShMultiple => [PoMany] | _ => [] end) None).
Proof.
  intros Hl. unfold derive_field. cbn.
  destruct i as [|a [|b t]]; cbn in Hl; try lia.
  destruct sh; reflexivity.
Qed.

Theorem unnamed_is_positional sh :
  sh <> ShBool -> sh <> ShUnit ->
  derive_field (mkField None sh [] None false None) =
  Some (mkPlan [] [] [] (KPositionalK default_metavar)
               (match sh with ShOptional => [PoOptional] | ShMultiple => [PoMany] | _ => [] end) None).
Proof. intros H1 H2. destruct sh; try congruence; reflexivity. Qed.

Lemma options_help_explicit doc d h f :
  (forall x, d = Some x -> fst (fst (options_help doc d h f)) = Some x) /\
  (forall x, h = Some x -> snd (fst (options_help doc d h f)) = Some x) /\
  (forall x, f = Some x -> snd (options_help doc d h f) = Some x).
Proof. unfold options_help. destruct doc; repeat split; intros x ->; reflexivity. Qed.

(* each part depends on the doc comment and on ITS OWN annotation only *)
Lemma options_help_local doc d h f d' h' f' :
  fst (fst (options_help doc d h f)) = fst (fst (options_help doc d h' f')) /\
  snd (fst (options_help doc d h f)) = snd (fst (options_help doc d' h f')) /\
  snd (options_help doc d h f) = snd (options_help doc d' h' f).
Proof. unfold options_help. destruct doc; repeat split; reflexivity. Qed.

(* without annotations: description = first block, header = second block unless empty, footer = the rest *)
Lemma options_help_from_doc c :
  options_help (Some c) None None None =
  (hd_error (doc_blocks c),
   match tl (doc_blocks c) with b :: _ => if is_nil b then None else Some b | [] => None end,
   let rest := join_rest (tl (tl (doc_blocks c))) [] in if is_nil rest then None else Some rest).
Proof. reflexivity. Qed.
