(* Find.v -- the ArgsIter search of src/args.rs (the leftmost live item of the scope that passes the test), and
   what the other ledger operations of Model/State.v leave unchanged. *)
From BpafLemmas Require Import Tac.

Lemma find_from_some f ix its sts e r :
  find_from f ix its sts e = Some r ->
  ix <= r < e /\ r - ix < length its /\ r - ix < length sts /\
  (exists a st, nth_error its (r - ix) = Some a /\ nth_error sts (r - ix) = Some st /\
                present st = true /\ f r a = true).
Proof.
  revert ix sts. induction its as [|a its IH]; intros ix sts H; cbn in H; [discriminate H|].
  destruct sts as [|st sts]; [discriminate H|].
  destruct (Nat.ltb ix e) eqn:Hlt; [|cbn in H; discriminate H].
  apply Nat.ltb_lt in Hlt.
  destruct (present st && f ix a) eqn:Hc.
  - inversion H; subst r. replace (ix - ix) with 0 by lia. cbn.
    apply andb_prop in Hc. destruct Hc as [Hp Hf].
    repeat split; try lia. exists a, st. auto.
  - apply IH in H. destruct H as (Hr & Hl1 & Hl2 & a' & st' & Ha & Hs & Hp & Hf).
    replace (r - ix) with (S (r - S ix)) by lia. cbn.
    repeat split; try lia. exists a', st'. auto.
Qed.

Lemma find_from_none f ix its sts e :
  find_from f ix its sts e = None ->
  forall k a st, ix + k < e -> nth_error its k = Some a -> nth_error sts k = Some st ->
                 present st = true -> f (ix + k) a = false.
Proof.
  revert ix sts. induction its as [|a its IH]; intros ix sts H k a' st' Hk Ha Hs Hp.
  - destruct k; discriminate.
  - destruct sts as [|st sts]; [destruct k; discriminate|].
    cbn in H. destruct (Nat.ltb ix e) eqn:Hlt.
    + destruct (present st && f ix a) eqn:Hc; [discriminate|].
      destruct k as [|k]; cbn in Ha, Hs.
      * inversion Ha; inversion Hs; subst. rewrite Hp in Hc. cbn in Hc.
        replace (ix + 0) with ix by lia. exact Hc.
      * replace (ix + S k) with (S ix + k) by lia.
        eapply IH; eauto. lia.
    + apply Nat.ltb_ge in Hlt. lia.
Qed.

Lemma find_from_before f ix its sts e r :
  find_from f ix its sts e = Some r ->
  forall k a st, ix + k < r -> nth_error its k = Some a -> nth_error sts k = Some st ->
                 present st = true -> f (ix + k) a = false.
Proof.
  revert ix sts. induction its as [|a its IH]; intros ix sts H k a' st' Hk Ha Hs Hp.
  - destruct k; discriminate.
  - destruct sts as [|st sts]; [destruct k; discriminate|].
    cbn in H. destruct (Nat.ltb ix e) eqn:Hlt; [|discriminate].
    destruct (present st && f ix a) eqn:Hc.
    + inversion H; subst r. lia.
    + destruct k as [|k]; cbn in Ha, Hs.
      * inversion Ha; inversion Hs; subst. rewrite Hp in Hc. cbn in Hc.
        replace (ix + 0) with ix by lia. exact Hc.
      * replace (ix + S k) with (S ix + k) by lia.
        eapply IH; eauto. lia.
Qed.

Lemma nth_error_skipn {A} (l : list A) n k : nth_error (skipn n l) k = nth_error l (n + k).
Proof.
  revert l. induction n as [|n IH]; intros l; cbn; [reflexivity|].
  destruct l; cbn; [destruct k; reflexivity|apply IH].
Qed.

Lemma find_item_some s f ix :
  find_item s f = Some ix ->
  in_scope s ix = true /\
  exists a st, nth_error (items s) ix = Some a /\ ist_at s ix = Some st /\
               present st = true /\ f ix a = true.
Proof.
  unfold find_item. intros H. apply find_from_some in H.
  destruct H as (Hr & _ & _ & a & st & Ha & Hs & Hp & Hf).
  rewrite nth_error_skipn in Ha. rewrite nth_error_skipn in Hs.
  replace (sc_start s + (ix - sc_start s)) with ix in * by lia.
  split.
  - unfold in_scope. apply andb_true_intro. split; [apply Nat.leb_le|apply Nat.ltb_lt]; lia.
  - exists a, st. auto.
Qed.

Lemma find_item_none s f :
  find_item s f = None ->
  forall ix a st, in_scope s ix = true -> nth_error (items s) ix = Some a ->
                  ist_at s ix = Some st -> present st = true -> f ix a = false.
Proof.
  unfold find_item. intros H ix a st Hin Ha Hs Hp.
  unfold in_scope in Hin. apply andb_prop in Hin. destruct Hin as [H1 H2].
  apply Nat.leb_le in H1. apply Nat.ltb_lt in H2.
  pose proof (find_from_none _ _ _ _ _ H (ix - sc_start s) a st) as Hn.
  replace (sc_start s + (ix - sc_start s)) with ix in Hn by lia.
  apply Hn; try assumption.
  - rewrite nth_error_skipn. replace (sc_start s + (ix - sc_start s)) with ix by lia. exact Ha.
  - rewrite nth_error_skipn. replace (sc_start s + (ix - sc_start s)) with ix by lia. exact Hs.
Qed.

Lemma find_item_before s f ix :
  find_item s f = Some ix ->
  forall i a st, sc_start s <= i < ix -> nth_error (items s) i = Some a -> ist_at s i = Some st ->
                 present st = true -> f i a = false.
Proof.
  unfold find_item, ist_at. intros H i a st Hi Ha Hs Hp.
  pose proof (find_from_before _ _ _ _ _ _ H (i - sc_start s) a st) as Hb.
  rewrite !nth_error_skipn in Hb. replace (sc_start s + (i - sc_start s)) with i in Hb by lia.
  apply Hb; auto. lia.
Qed.

(* named consumers search the whole scope: a matching live item is found wherever it stands *)
Theorem find_item_complete s f ix a st :
  in_scope s ix = true -> nth_error (items s) ix = Some a -> ist_at s ix = Some st ->
  present st = true -> f ix a = true -> exists jx, find_item s f = Some jx /\ jx <= ix.
Proof.
  intros Hin Ha Hs Hp Hf.
  destruct (find_item s f) as [jx|] eqn:E.
  - exists jx. split; [reflexivity|].
    destruct (Nat.le_gt_cases jx ix) as [|Hlt]; [assumption|exfalso].
    unfold in_scope in Hin. apply andb_prop in Hin. destruct Hin as [H1 _]. apply Nat.leb_le in H1.
    rewrite (find_item_before s f jx E ix a st (conj H1 Hlt) Ha Hs Hp) in Hf. discriminate.
  - rewrite (find_item_none _ _ E ix a st Hin Ha Hs Hp) in Hf. discriminate.
Qed.

Lemma sremove_other_present k ix s jx :
  jx <> ix -> ist_at (sremove k ix s) jx = ist_at s jx.
Proof.
  intros Hne. unfold sremove.
  destruct (in_scope s ix && _); [|reflexivity].
  unfold ist_at; cbn. clear -Hne.
  revert ix jx Hne. induction (ist s) as [|x l IH]; intros ix jx Hne; cbn.
  - destruct ix; reflexivity.
  - destruct ix, jx; cbn; try reflexivity; try congruence. apply IH. congruence.
Qed.

Lemma sremove_items k ix s : items (sremove k ix s) = items s.
Proof. unfold sremove. destruct (_ && _); reflexivity. Qed.

Lemma sremove_scope k ix s jx : in_scope (sremove k ix s) jx = in_scope s jx.
Proof. unfold sremove. destruct (_ && _); reflexivity. Qed.

Lemma get_some s ix a :
  get s ix = Some a ->
  in_scope s ix = true /\ nth_error (items s) ix = Some a /\
  exists st, ist_at s ix = Some st /\ present st = true.
Proof.
  unfold get. destruct (in_scope s ix) eqn:Hin; cbn [andb]; [|discriminate].
  destruct (ist_at s ix) as [st|] eqn:Hs; [|discriminate].
  destruct (present st) eqn:Hp; [|discriminate].
  intros H. repeat split; auto. eauto.
Qed.

Lemma save_conflicts_go_length win a b : length (save_conflicts_go win a b) = length a.
Proof.
  revert b. induction a as [|x a IH]; intros b; cbn; [reflexivity|].
  destruct b; cbn; [reflexivity|]. rewrite IH. reflexivity.
Qed.

Lemma save_conflicts_go_present win a b i :
  option_map present (nth_error (save_conflicts_go win a b) i) = option_map present (nth_error a i).
Proof.
  revert b i. induction a as [|x a IH]; intros b i; cbn; [reflexivity|].
  destruct b as [|y b]; cbn; [reflexivity|].
  destruct i; cbn.
  - destruct (present x && parsed y) eqn:Hc; [|reflexivity].
    apply andb_prop in Hc. destruct Hc as [Hx _]. cbn. rewrite Hx. reflexivity.
  - apply IH.
Qed.

Lemma save_conflicts_go_conflict win a b i w :
  nth_error (save_conflicts_go win a b) i = Some (Conflict w) -> w = win \/ nth_error a i = Some (Conflict w).
Proof.
  revert b i. induction a as [|x a IH]; intros b i; cbn; [auto|].
  destruct b as [|y b]; cbn; [auto|].
  destruct i; cbn.
  - destruct (present x && parsed y); intros H; [inversion H; auto|auto].
  - apply IH.
Qed.

Lemma pick_winner_go_lt ix me other b w :
  pick_winner_go ix me other = (b, Some w) -> ix <= w /\ w < ix + length me /\ w < ix + length other.
Proof.
  revert ix other. induction me as [|x me IH]; intros ix other; cbn; [discriminate|].
  destruct other as [|y other]; [discriminate|].
  destruct (xorb (parsed x) (parsed y)).
  - intros H. inversion H; subst. cbn. repeat split; try apply Nat.le_refl; apply Nat.lt_add_pos_r; apply Nat.lt_0_succ.
  - intros H. apply IH in H. cbn [length]. destruct H as (H1 & H2 & H3). repeat split.
    + apply Nat.le_trans with (S ix); [apply Nat.le_succ_diag_r|exact H1].
    + rewrite <- Nat.add_succ_comm. exact H2.
    + rewrite <- Nat.add_succ_comm. exact H3.
Qed.

Lemma pick_winner_lt sa sb b w :
  pick_winner sa sb = (b, Some w) -> w < length (ist sa) /\ w < length (ist sb).
Proof. unfold pick_winner. intros H. apply pick_winner_go_lt in H. cbn in H. tauto. Qed.
