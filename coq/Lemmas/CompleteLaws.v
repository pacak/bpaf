(* CompleteLaws.v -- Complete::complete (src/complete_gen.rs), C14: which collected hints become
   candidates, and what a candidate looks like by the kind of its hint. *)
From Coq Require Import Lia.
From BpafModel Require Import Complete.
Import ListNotations.

Definition picks (arg : str) (po : bool) (px : cprefix) (cs : list comp) : list showcomp :=
  flat_map (fun c => match comp_item arg po px c with Some i => [i] | None => [] end) cs.

Lemma in_picks arg po px i cs : In i (picks arg po px cs) <-> exists c, In c cs /\ comp_item arg po px c = Some i.
Proof.
  unfold picks. rewrite in_flat_map. split; intros (c & Hc & H); exists c; (split; [exact Hc|]).
  - destruct (comp_item arg po px c); [destruct H as [<-|[]]; reflexivity|destruct H].
  - rewrite H. left. reflexivity.
Qed.

(* the loop in closed form: as soon as a value-only hint is met (or from the start, if `ov`) only
   value-only hints count, and what was collected before the first one is dropped *)
Lemma go_items arg po nm px : forall cs ov items shell,
  fst (complete_go arg po nm px cs ov items shell) =
  if ov || existsb only_value cs
  then (if ov then rev items else []) ++ picks arg po px (filter only_value cs)
  else rev items ++ picks arg po px cs.
Proof.
  induction cs as [|c t IH]; intros ov items shell; cbn [complete_go existsb filter].
  - destruct ov; cbn [fst orb picks flat_map]; rewrite app_nil_r; reflexivity.
  - destruct ov, (only_value c); cbn [andb negb orb]; rewrite IH; cbn [orb picks flat_map];
      destruct (comp_item arg po px c); cbn [rev app]; rewrite <- ?app_assoc; reflexivity.
Qed.

(* Complete::complete: the hints of the deepest level (positional ones after `--`, value hints behind
   `--name=`); if a value-only hint is among them, those alone *)
Theorem complete_items cs arg po nm px :
  fst (complete cs arg po nm px) =
  let l := filter (passes (max_depth cs) po px) cs in
  picks arg po px (if existsb only_value l then filter only_value l else l).
Proof. unfold complete. rewrite go_items. cbv zeta. destruct (existsb only_value _); reflexivity. Qed.

Lemma complete_in cs arg po nm px i :
  In i (fst (complete cs arg po nm px)) -> exists c,
    In c cs /\ passes (max_depth cs) po px c = true /\ comp_item arg po px c = Some i /\
    (existsb only_value (filter (passes (max_depth cs) po px) cs) = true -> only_value c = true).
Proof.
  rewrite complete_items. cbv zeta. intros H. apply in_picks in H. destruct H as (c & Hc & Hit). exists c.
  destruct (existsb only_value _); apply filter_In in Hc; destruct Hc as [Hc Ho].
  - apply filter_In in Hc. destruct Hc as [Hc Hp]. auto.
  - split; [exact Hc|]. split; [exact Ho|]. split; [exact Hit|discriminate].
Qed.

Lemma fold_max_ge l : forall a, a <= fold_left Nat.max l a.
Proof. induction l as [|x l IH]; intros a; cbn; [lia|]. specialize (IH (Nat.max a x)). lia. Qed.

Lemma fold_max_in l : forall a x, In x l -> x <= fold_left Nat.max l a.
Proof.
  induction l as [|y l IH]; intros a x H; [contradiction|]. cbn. destruct H as [->|H]; [|apply IH; exact H].
  pose proof (fold_max_ge l (Nat.max a x)). lia.
Qed.

Lemma max_depth_ge cs c : In c cs -> comp_depth c <= max_depth cs.
Proof. intros H. unfold max_depth. apply fold_max_in. apply in_map. exact H. Qed.

(* every candidate stems from a collected hint of the deepest command level entered (and, after
   `--`, a positional one) *)
Theorem complete_sound cs arg po nm px i :
  In i (fst (complete cs arg po nm px)) ->
  exists c, In c cs /\ comp_depth c = max_depth cs /\ (po = true -> is_pos c = true) /\
            comp_item arg po px c = Some i.
Proof.
  intros H. apply complete_in in H. destruct H as (c & Hc & Hp & Hit & _).
  unfold passes in Hp. apply andb_prop in Hp. destruct Hp as [Hp _].
  apply andb_prop in Hp. destruct Hp as [Hd Hpo].
  exists c. split; [exact Hc|]. split; [apply Nat.eqb_eq; exact Hd|]. split; [|exact Hit].
  intros ->. cbn in Hpo. exact Hpo.
Qed.

(* what a candidate looks like, by the kind of its hint: a flag / argument / command name is offered
   only through the name filters; a completer's
   value carries the typed `-s=` / `--long=` prefix; a metavariable placeholder replaces nothing *)
Theorem comp_item_shape arg po px c i :
  comp_item arg po px c = Some i ->
  match c with
  | CoFlag _ s l => arg_matches arg s l = Some (sc_subst i) /\ sc_pretty i = sc_subst i
  | CoArgument _ s l mv => arg_matches arg s l = Some (sc_subst i) /\ sc_pretty i = sc_subst i ++ eq_sign :: mv
  | CoCommand _ name s => cmd_matches arg name s = true /\ sc_subst i = name /\ sc_pretty i = name
  | CoValue _ body _ =>
    sc_pretty i = body /\
    sc_subst i = match px with PxNA => body | PxShort s => dash :: s :: eq_sign :: body
                          | PxLong l => dash :: dash :: l ++ eq_sign :: body end
  | CoMeta _ meta _ => sc_subst i = [] /\ sc_pretty i = meta
  | CoShell _ _ _ => False
  end /\ sc_group i = ce_group (comp_extra c) /\ sc_help i = ce_help (comp_extra c).
Proof.
  destruct c as [e s l|e s l mv|e name s|e body a|e meta a|e sc a]; cbn [comp_item].
  - destruct (arg_matches arg s l) as [n|]; [|discriminate]. intros H; inversion H; subst. cbn. auto.
  - destruct (arg_matches arg s l) as [n|]; [|discriminate]. intros H; inversion H; subst. cbn. auto.
  - destruct (cmd_matches arg name s); [|discriminate]. intros H; inversion H; subst. cbn. auto.
  - intros H; inversion H; subst. cbn. auto.
  - destruct (negb a && negb po && _); [discriminate|]. intros H; inversion H; subst. cbn. auto.
  - discriminate.
Qed.

(* while the value of an argument is being typed, no flag, argument or command name is offered *)
Theorem complete_value_mode cs arg po nm px i :
  (exists c, In c cs /\ passes (max_depth cs) po px c = true /\ only_value c = true) ->
  In i (fst (complete cs arg po nm px)) ->
  exists c, In c cs /\ only_value c = true /\ comp_item arg po px c = Some i.
Proof.
  intros (c0 & Hc0 & Hp0 & Ho0) H. apply complete_in in H. destruct H as (c & Hc & _ & Hit & Ho).
  exists c. split; [exact Hc|]. split; [|exact Hit].
  apply Ho, existsb_exists. exists c0. split; [apply filter_In; auto|exact Ho0].
Qed.

(* otherwise every hint of the deepest level whose name extends what was typed is offered *)
Theorem complete_names_complete cs arg po nm px c i :
  (forall c', In c' cs -> passes (max_depth cs) po px c' = true -> only_value c' = false) ->
  In c cs -> passes (max_depth cs) po px c = true -> comp_item arg po px c = Some i ->
  In i (fst (complete cs arg po nm px)).
Proof.
  intros Hn Hc Hp Hit. rewrite complete_items. cbv zeta.
  destruct (existsb only_value (filter (passes (max_depth cs) po px) cs)) eqn:E.
  - apply existsb_exists in E. destruct E as (c' & Hc' & Ho). apply filter_In in Hc'. destruct Hc' as [H1 H2].
    rewrite (Hn c' H1 H2) in Ho. discriminate.
  - apply in_picks. exists c. split; [apply filter_In; auto|exact Hit].
Qed.

(* while the value of `--name=val` / `-n=val` is being typed (a prefix is in force) every candidate
   completes an argument's value: no name, no positional hint, no `--` *)
Theorem complete_prefix_only_values cs arg po nm px i :
  px <> PxNA -> In i (fst (complete cs arg po nm px)) ->
  exists c, In c cs /\ only_value c = true /\ comp_item arg po px c = Some i.
Proof.
  intros Hpx H. apply complete_in in H. destruct H as (c & Hc & Hp & Hit & _).
  unfold passes in Hp. apply andb_prop in Hp. destruct Hp as [_ Hv].
  exists c. split; [exact Hc|]. split; [|exact Hit]. destruct px; [congruence|exact Hv|exact Hv].
Qed.
