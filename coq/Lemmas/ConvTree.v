(* ConvTree.v -- C01 for whole subcommand trees: a level may offer a CHOICE of subcommands
   (construct!([a, b, c]) = nested or_else).  Every alternative is evaluated; the ones whose name is
   not the command word fail without entering (the command path keeps its depth), the one that
   matches enters and succeeds with a longer path, and the pick rule of the alternative combinator
   (deeper wins; a success beats a failure at equal depth) returns it.  Also the condition on trees
   and its decidability, what a specified vector cannot hold right of a command name, the chain
   theorem as a corollary, and the value of a level with subcommands (C08). *)
From BpafModel Require Import Conv.
From BpafLemmas Require Import Tac Reach ConvLaws CatchLaws AbsSim ConvRefine ConvChain.
Import ListNotations.

Definition dep (s : state) : nat := length (path s).

Lemma dep_depth s : depth s = dep s.
Proof. reflexivity. Qed.

Section Tree.
Variable env : bytes -> option bytes.
Variable n : nat.

Lemma cmd_miss name aliases q inf s i w rest :
  Sim n s ((i, Word w) :: rest) -> mem_bytes w (name :: aliases) = false ->
  exists e s1, eval env (PCmd name aliases [] None false (Options q inf)) s = (RErr e, s1) /\ dep s1 = dep s.
Proof.
  intros HS Hm. pose proof (cmd_sim env n name aliases q inf s _ HS) as H. cbn beta iota in H.
  change (existsb (fun w0 => is_cmd w0 (Word w)) (name :: aliases)) with (mem_bytes w (name :: aliases)) in H.
  rewrite Hm in H. destruct H as (e & s1 & E & P). exists e, s1. split; [exact E|]. unfold dep. rewrite P. reflexivity.
Qed.

Lemma cmd_hit name aliases q inf s i w rest v :
  Sim n s ((i, Word w) :: rest) -> mem_bytes w (name :: aliases) = true ->
  (forall s3, Sim n s3 rest -> exists s4, eval env q s3 = (ROk v, s4) /\ Sim n s4 [] /\ dep s3 <= dep s4) ->
  exists s', eval env (PCmd name aliases [] None false (Options q inf)) s = (ROk v, s') /\ Sim n s' [] /\
             dep s < dep s'.
Proof.
  intros HS M Hq. pose proof (cmd_sim env n name aliases q inf s _ HS) as H. cbn beta iota in H.
  change (existsb (fun w0 => is_cmd w0 (Word w)) (name :: aliases)) with (mem_bytes w (name :: aliases)) in H.
  rewrite M in H. destruct H as (s3 & S3 & P3 & ->).
  destruct (Hq s3 S3) as (s4 & Ee & S4 & D4).
  rewrite run_sub_eq, Ee, (run_sub_accepts env _ _ s3 n s4 v S4). exists s4. split; [reflexivity|]. split; [exact S4|].
  unfold dep in *. rewrite P3, app_length in D4. cbn [length] in D4. lia.
Qed.

Definition ctriple := (bytes * list bytes * level)%type.
Definition mkcmd (t : ctriple) : parser :=
  let '(name, aliases, sub) := t in PCmd name aliases [] None false (Options (compile sub) default_info).
Definition cmatch (w : bytes) (t : ctriple) : bool :=
  let '(name, aliases, _) := t in mem_bytes w (name :: aliases).

Fixpoint cs_list (cs : clist) : list ctriple :=
  match cs with CNil => [] | CCons name aliases sub rest => (name, aliases, sub) :: cs_list rest end.

Lemma compile_cmds_list cs : compile_cmds cs = map mkcmd (cs_list cs).
Proof. induction cs as [|name aliases sub rest IH]; cbn; [reflexivity|]. rewrite IH. reflexivity. Qed.

Lemma find_cmd_list cs w :
  find_cmd cs w = option_map (fun t => snd t) (find (cmatch w) (cs_list cs)).
Proof.
  induction cs as [|name aliases sub rest IH]; cbn [find_cmd cs_list find]; [reflexivity|].
  unfold cmatch at 1. unfold mem_bytes. cbn [existsb]. fold (mem_bytes w aliases).
  destruct (beqb w name || mem_bytes w aliases); [reflexivity|exact IH].
Qed.

Lemma or_fail_fail a b s ea sa eb sb :
  eval env a s = (RErr ea, sa) -> eval env b s = (RErr eb, sb) -> dep sa = dep s -> dep sb = dep s ->
  exists e, eval env (POr a b) s = (RErr e, s).
Proof.
  intros Ea Eb Da Db. rewrite eval_POr. unfold or_body. rewrite Ea, Eb.
  rewrite (both_fail ea eb s sa sb); [eauto|]. unfold dep in *. unfold depth. congruence.
Qed.

Lemma or_fail_ok a b s ea sa v sb :
  eval env a s = (RErr ea, sa) -> eval env b s = (ROk v, sb) -> dep sa = dep s -> dep s < dep sb ->
  eval env (POr a b) s = (ROk v, sb).
Proof.
  intros Ea Eb Da Db. rewrite eval_POr. unfold or_body. rewrite Ea, Eb.
  rewrite (deeper_wins (RErr ea) (ROk v) s sa sb); [reflexivity|]. unfold dep in *. unfold depth. rewrite Da. exact Db.
Qed.

Lemma or_ok_fail a b s v sa eb sb :
  eval env a s = (ROk v, sa) -> eval env b s = (RErr eb, sb) -> dep s < dep sa -> dep sb = dep s ->
  eval env (POr a b) s = (ROk v, sa).
Proof.
  intros Ea Eb Da Db. rewrite eval_POr. unfold or_body. rewrite Ea, Eb.
  rewrite (deeper_wins_left (ROk v) (RErr eb) s sa sb); [reflexivity|]. unfold dep in *. unfold depth. rewrite Db. exact Da.
Qed.

Definition unique_match (w : bytes) (ts : list ctriple) : Prop :=
  forall t1 t2 pre mid post, ts = pre ++ t1 :: mid ++ t2 :: post -> cmatch w t1 = true -> cmatch w t2 = true -> False.

(* commands that do not carry the word are neutral in an alternative: they fail without entering,
   so a value found deeper stays, and a failure at this depth stays a failure at this depth *)
Lemma miss_neutral s i w rest more :
  Sim n s ((i, Word w) :: rest) -> (forall t, In t more -> cmatch w t = false) -> forall acc,
  (forall v s', eval env acc s = (ROk v, s') -> dep s < dep s' ->
     eval env (fold_left POr (map mkcmd more) acc) s = (ROk v, s')) /\
  (forall e se, eval env acc s = (RErr e, se) -> dep se = dep s ->
     exists e' se', eval env (fold_left POr (map mkcmd more) acc) s = (RErr e', se') /\ dep se' = dep s).
Proof.
  intros HS. induction more as [|t more IH]; intros Hm acc; cbn [map fold_left]; [split; eauto|].
  destruct (IH (fun t' H => Hm t' (or_intror H)) (POr acc (mkcmd t))) as [IHok IHerr].
  pose proof (Hm t (or_introl eq_refl)) as Mt. destruct t as [[name aliases] sub]. cbn [mkcmd cmatch] in *.
  destruct (cmd_miss name aliases (compile sub) default_info s i w rest HS Mt) as (eb & sb & Eb & Db). split.
  - intros v s' E D. apply IHok; [exact (or_ok_fail _ _ s v s' eb sb E Eb D Db)|exact D].
  - intros e se E D. destruct (or_fail_fail _ _ s e se eb sb E Eb D Db) as [e' E']. exact (IHerr e' s E' eq_refl).
Qed.

Lemma con_go_last_dep evs aevs evc vc lfin :
  Forall2 (sim_ev n) evs aevs -> Forall keepsp evs ->
  forall s l first acc vs lk,
    Sim n s l -> arun aevs l = Some (vs, lk) ->
    (forall sk, Sim n sk lk -> exists s', evc sk = (ROk vc, s') /\ Sim n s' lfin /\ dep sk <= dep s') ->
    exists s', con_go false (evs ++ [evc]) s first acc None = (ROk (VTuple (rev acc ++ vs ++ [vc])), s') /\ Sim n s' lfin /\
               dep s <= dep s'.
Proof.
  intros Hs Hk. revert Hk. induction Hs as [|ev aev evs aevs H1 Hl IH]; intros Hk s l first acc vs lk HS Ea Hc; cbn [app con_go arun] in *.
  - inversion Ea; subst. destruct (Hc s HS) as (s1 & E1 & S1 & D1). rewrite E1. cbn [rev].
    eexists. split; [rewrite app_nil_l; reflexivity|]. split; [apply set_current_sim; exact S1|exact D1].
  - inversion Hk as [|? ? Hk1 Hk2]; subst.
    destruct (H1 s l HS) as [R S1]. pose proof (Hk1 s) as P1. destruct (ev s) as [r s1]. destruct (aev l) as [a l1]. cbn [fst snd] in *.
    destruct a as [x'|m c|]; try discriminate.
    destruct r as [x|e|w|]; cbn in R; try contradiction. subst x'.
    destruct (arun aevs l1) as [[vs' l2]|] eqn:Er; [|discriminate]. inversion Ea; subst vs lk.
    destruct (IH Hk2 s1 l1 false (x :: acc) vs' l2 S1 Er Hc) as (s' & E' & S' & D').
    exists s'. split; [|split; [exact S'|]].
    + rewrite E'. cbn [rev]. rewrite <- !app_assoc. reflexivity.
    + unfold dep in *. rewrite P1 in D'. exact D'.
Qed.

Lemma items_keepsp items :
  Forall (fun it => named_ok (item_named it) = true) items ->
  Forall keepsp (map (eval env) (map compile_item items)).
Proof.
  induction 1 as [|it t Hit Ht IH]; cbn [map]; constructor; [|exact IH].
  apply flat_path. apply flatp_item. exact Hit.
Qed.

Definition cmd_names_unique (ts : list ctriple) : Prop := forall w, unique_match w ts.

Fixpoint tree_ok (l : level) : Prop :=
  match l with
  | Level items tail =>
    match tail with
    | TCmds cs =>
      cs <> CNil /\ disjoint_names items /\ Forall (fun it => named_ok (item_named it) = true) items /\
      1 <= length items /\ tree_ok_cs cs /\ cmd_names_unique (cs_list cs) /\
      (forall it it' a, In it items -> In it' (all_items_cs cs) ->
                        matches_arg (item_named it) false a = true -> matches_arg (item_named it') false a = true -> False)
    | _ => flat_ok items tail
    end
  end
with tree_ok_cs (cs : clist) : Prop :=
  match cs with
  | CNil => True
  | CCons _ _ sub rest => tree_ok sub /\ tree_ok_cs rest
  end.

Lemma tree_ok_cs_in cs t : tree_ok_cs cs -> In t (cs_list cs) -> tree_ok (snd t).
Proof.
  induction cs as [|name aliases sub rest IH]; cbn [tree_ok_cs cs_list]; [intros _ []|].
  intros [H1 H2] [<-|Hin]; [exact H1|apply IH; assumption].
Qed.

Lemma cs_list_items cs t : In t (cs_list cs) -> incl (all_items (snd t)) (all_items_cs cs).
Proof.
  induction cs as [|name aliases sub rest IH]; cbn [cs_list all_items_cs]; [intros []|].
  intros [<-|Hin]; [apply incl_appl, incl_refl|apply incl_appr, IH; exact Hin].
Qed.

Lemma find_first_unique w ts t : unique_match w ts -> In t ts -> cmatch w t = true -> find (cmatch w) ts = Some t.
Proof.
  induction ts as [|x r IH]; intros Hu Hin M; [contradiction|]. cbn [find].
  destruct Hin as [->|Hin]; [rewrite M; reflexivity|].
  destruct (cmatch w x) eqn:Mx.
  - exfalso. apply in_split in Hin. destruct Hin as (mid & post & ->). apply (Hu x t [] mid post eq_refl Mx M).
  - apply IH; [|exact Hin|exact M]. intros t1 t2 pre mid post E. apply (Hu t1 t2 (x :: pre) mid post). rewrite E. reflexivity.
Qed.

Lemma alt_pick sk j w rest sv t0 more tm :
  Sim n sk ((j, Word w) :: rest) -> unique_match w (t0 :: more) -> In tm (t0 :: more) -> cmatch w tm = true ->
  (forall s3, Sim n s3 rest -> exists s4, eval env (compile (snd tm)) s3 = (ROk sv, s4) /\ Sim n s4 [] /\ dep s3 <= dep s4) ->
  exists s', eval env (fold_left POr (map mkcmd more) (mkcmd t0)) sk = (ROk sv, s') /\ Sim n s' [] /\ dep sk < dep s'.
Proof.
  intros Sk Hu0 Htm Mtm Hsub.
  assert (Hhit : exists s', eval env (mkcmd tm) sk = (ROk sv, s') /\ Sim n s' [] /\ dep sk < dep s').
  { destruct tm as [[name aliases] sub]. exact (cmd_hit name aliases (compile sub) default_info sk j w rest sv Sk Mtm Hsub). }
  destruct Hhit as (s' & E' & S' & D'). exists s'. split; [|split; [exact S'|exact D']].
  destruct Htm as [<-|Hin].
  - (* the first one carries the word: every later one misses *)
    apply (miss_neutral sk j w rest more Sk); [|exact E'|exact D'].
    intros t Ht. destruct (cmatch w t) eqn:Mt; [|reflexivity]. exfalso.
    apply in_split in Ht. destruct Ht as (mid & post & ->). exact (Hu0 t0 t [] mid post eq_refl Mtm Mt).
  - (* it stands after some that miss, and before some that miss *)
    apply in_split in Hin. destruct Hin as (pre & post & ->).
    assert (Hpre : forall t, In t (t0 :: pre) -> cmatch w t = false).
    { intros t Ht. destruct (cmatch w t) eqn:Mt; [|reflexivity]. exfalso.
      apply in_split in Ht. destruct Ht as (p1 & p2 & Et).
      apply (Hu0 t tm p1 p2 post); [|exact Mt|exact Mtm].
      change (t0 :: pre ++ tm :: post) with ((t0 :: pre) ++ tm :: post). rewrite Et, <- app_assoc. reflexivity. }
    assert (Hpost : forall t, In t post -> cmatch w t = false).
    { intros t Ht. destruct (cmatch w t) eqn:Mt; [|reflexivity]. exfalso.
      apply in_split in Ht. destruct Ht as (p1 & p2 & ->).
      apply (Hu0 tm t (t0 :: pre) p1 p2); [|exact Mtm|exact Mt]. reflexivity. }
    rewrite map_app, fold_left_app. cbn [map fold_left].
    pose proof (Hpre t0 (or_introl eq_refl)) as M0. destruct t0 as [[name0 aliases0] sub0]. cbn [mkcmd cmatch] in *.
    destruct (cmd_miss name0 aliases0 (compile sub0) default_info sk j w rest Sk M0) as (e0 & se0 & E0 & D0).
    destruct (proj2 (miss_neutral sk j w rest pre Sk (fun t H => Hpre t (or_intror H)) _) e0 se0 E0 D0) as (e1 & se1 & E1 & D1).
    apply (miss_neutral sk j w rest post Sk Hpost); [|exact D'].
    exact (or_fail_ok _ _ sk e1 se1 sv s' E1 E' D1 D').
Qed.

Definition cross (anc : list citem) (l : level) : Prop :=
  forall it it' a, In it (all_items l) -> In it' anc ->
    matches_arg (item_named it) false a = true -> matches_arg (item_named it') false a = true -> False.

Lemma cross_apart anc l : cross anc l <-> apart (all_items l) anc.
Proof. reflexivity. Qed.

Lemma cross_items anc items tail : cross anc (Level items tail) -> apart items anc.
Proof. intros Hc it it' a Hit. apply (Hc it it' a). cbn [all_items]. apply in_or_app. left. exact Hit. Qed.

(* names are unique between a level and everything below it: so they are between a sublevel and
   the levels above it *)
Lemma cross_sub anc items cs tm :
  cross anc (Level items (TCmds cs)) -> In tm (cs_list cs) -> apart items (all_items_cs cs) ->
  cross (anc ++ items) (snd tm).
Proof.
  intros Hc Htm Hcross it it' a Hit Hit' M M'. apply in_app_or in Hit'. destruct Hit' as [Hit'|Hit'].
  - apply (Hc it it' a); auto. cbn [all_items]. apply in_or_app. right. apply (cs_list_items cs tm Htm). exact Hit.
  - apply (Hcross it' it a Hit'); auto. apply (cs_list_items cs tm Htm). exact Hit.
Qed.

Lemma tfree_incl anc anc' ts : incl anc anc' -> tfree anc' ts -> tfree anc ts.
Proof. intros Hi Hf b Hb. destruct (Hf b Hb) as [H1 H2]. split; [exact H1|]. intros it Hit. apply H2, Hi, Hit. Qed.

(* a specified vector holds no help request and no option of an enclosing level *)
Lemma spec_free f : forall l anc ts,
  tree_ok l -> cross anc l -> denote_level f l anc ts <> Unspecified -> tfree anc ts.
Proof.
  induction f as [|f IH]; intros [items tail] anc ts Hok Hc Hs; [cbn in Hs; contradiction Hs; reflexivity|].
  cbn [denote_level] in Hs.
  pose proof (scan_spec items anc tail (cross_items anc items tail Hc) ts) as P.
  destruct (scan items anc tail ts) as [a|a sub rest| |] eqn:Sc; cbn [scan_post] in P.
  - exact P.
  - destruct P as (pre & w & -> & Hf).
    destruct (scan_cmd_decomp items anc tail _ 0 a sub rest Sc) as (_ & w' & cs & _ & -> & Hfc & _).
    rewrite find_cmd_list in Hfc. destruct (find (cmatch w') (cs_list cs)) as [tm|] eqn:Ff; [|discriminate].
    cbn in Hfc. inversion Hfc; subst sub. destruct (find_some _ _ Ff) as [Htm _].
    cbn [tree_ok] in Hok. destruct Hok as (Hne & Hdis & Hnames & Hlen1 & Hsubs & Huniq & Hcross).
    assert (Hrest : tfree (anc ++ items) rest).
    { apply (IH (snd tm) (anc ++ items) rest); [eapply tree_ok_cs_in; eauto|eapply cross_sub; eauto|].
      intros E. rewrite E in Hs. apply Hs. reflexivity. }
    apply tfree_app; [exact Hf|].
    apply (tfree_app anc [(Word w, false)] rest); [apply tfree_one, nonkey_spec; reflexivity|].
    eapply tfree_incl; [|exact Hrest]. apply incl_appl, incl_refl.
  - exact P.
  - contradiction Hs. reflexivity.
Qed.

Theorem tree_eval f : forall l anc ts ix s v,
  tree_ok l -> cross anc l -> Sim n s (live_from ix ts) -> length ts <= n ->
  denote_level f l anc ts = Accept v ->
  exists s', eval env (compile l) s = (ROk v, s') /\ Sim n s' [] /\ dep s <= dep s'.
Proof.
  induction f as [|f IH]; intros [items tail] anc ts ix s v Hok Hc S0 Hlen Hd; [discriminate|].
  assert (Hflatcase : flat_ok items tail ->
            exists s', eval env (compile (Level items tail)) s = (ROk v, s') /\ Sim n s' [] /\ dep s <= dep s').
  { intros Hf. destruct (level_eval_flat env n items tail anc ts ix s v f Hf S0 Hlen Hd) as (s' & E & S').
    exists s'. split; [exact E|]. split; [exact S'|].
    destruct (compile_flat items tail Hf) as [_ Hfl].
    pose proof (flat_path env _ Hfl s) as P. rewrite E in P. cbn [snd] in P. unfold dep. rewrite P. apply le_n. }
  destruct tail as [|ps|cs]; [apply Hflatcase; exact Hok|apply Hflatcase; exact Hok|]. clear Hflatcase.
  cbn [tree_ok] in Hok. destruct Hok as (Hne & Hdis & Hnames & Hlen1 & Hsubs & Huniq & Hcross).
  cbn [denote_level] in Hd.
  destruct (scan items anc (TCmds cs) ts) as [a|a sub' rest| |] eqn:Sc; try discriminate.
  { destruct (items_values items 0 (at_occ a)); discriminate. }
  destruct (scan_cmd_wf items anc _ ts ix a sub' rest Sc) as (pre & w & -> & Hfc & W & Ho & Hu & Hr).
  rewrite find_cmd_list in Hfc.
  destruct (find (cmatch w) (cs_list cs)) as [tm|] eqn:Ff; [|discriminate]. cbn in Hfc. inversion Hfc; subst sub'. clear Hfc.
  destruct (find_some _ _ Ff) as [Htm Mtm].
  destruct (denote_level f (snd tm) (anc ++ items) rest) as [sv| |] eqn:Ds; try discriminate.
  destruct (items_values items 0 (at_occ a)) as [vs|] eqn:Ev; [|discriminate].
  inversion Hd; subst v. clear Hd.
  set (j := ix + length pre).
  assert (Hcsub : cross (anc ++ items) (snd tm)) by (eapply cross_sub; eauto).
  assert (Hinert : forall b, In (b, false) rest -> inert items b).
  { intros b Hb it Hit. refine (proj2 (spec_free f (snd tm) (anc ++ items) rest _ Hcsub _ b Hb) it _).
    - eapply tree_ok_cs_in; eauto.
    - rewrite Ds. discriminate.
    - apply in_or_app. right. exact Hit. }
  pose proof (prefix_run items Hdis n ix pre a w rest vs (conj W (conj Ho (conj Hu Hr))) Hinert Hlen Ev) as Hrun.
  fold j in Hrun.
  (* the compiled parser: the items, then the alternative of commands *)
  cbn [compile]. rewrite compile_cmds_list.
  destruct (cs_list cs) as [|t0 more] eqn:Ecs; [destruct cs; [contradiction|discriminate]|].
  cbn [map]. set (alt := fold_left POr (map mkcmd more) (mkcmd t0)).
  rewrite (eval_fields_last env (map compile_item items) alt s) by (rewrite map_length; exact Hlen1).
  unfold con_body, con_reset.
  (* the last field on the state the items leave *)
  assert (Hlast : forall sk, Sim n sk ((j, Word w) :: live_from (S j) rest) ->
            exists s', eval env alt sk = (ROk sv, s') /\ Sim n s' [] /\ dep sk < dep s').
  { intros sk Sk. apply (alt_pick sk j w _ sv t0 more tm Sk (Huniq w) Htm Mtm).
    intros s3 S3. apply (IH (snd tm) (anc ++ items) rest (S j) s3 sv); [|exact Hcsub|exact S3| |exact Ds].
    - eapply tree_ok_cs_in; eauto. rewrite Ecs. exact Htm.
    - rewrite app_length in Hlen. cbn in Hlen. lia. }
  destruct (con_go_last_dep _ _ (eval env alt) sv [] (items_sim env n items Hnames) (items_keepsp items Hnames)
              s _ true [] vs _ S0 Hrun) as (s' & Ec & S' & D').
  { intros sk Sk. destruct (Hlast sk Sk) as (s' & E' & S'' & D''). exists s'. split; [exact E'|]. split; [exact S''|].
    apply Nat.lt_le_incl. exact D''. }
  match goal with |- context [con_go ?a ?b ?c ?d ?e ?g] => destruct (con_go a b c d e g) as [x sx] eqn:Eg end.
  assert (Heq : (x, sx) = (ROk (VTuple (rev [] ++ vs ++ [sv])), s')) by (rewrite <- Eg; exact Ec).
  inversion Heq; subst x sx. cbn [rev app]. eexists. split; [reflexivity|]. split; [apply set_current_sim; exact S'|].
  exact D'.
Qed.
End Tree.

(* C01 for whole subcommand trees: sentences are accepted with the value they denote *)
Theorem denote_accept_tree feat env l argv v :
  tree_ok l ->
  denote l argv = Accept v ->
  run_inner feat env (compile_options l) None argv = OutOk v.
Proof.
  intros Hok. apply accept_of_level. intros n f ts s S0 Hlen Hd.
  destruct (tree_eval env n f l [] ts 0 s v Hok (fun it it' a _ F => match F with end) S0 Hlen Hd) as (s1 & Ee & S1 & _). eauto.
Qed.

(* a chain is a tree whose levels offer one subcommand *)
Lemma chain_ok_tree : forall l, chain_ok l -> tree_ok l.
Proof.
  fix IH 1. intros [items [| |[|name aliases sub [|]]]]; cbn [chain_ok tree_ok tree_ok_cs]; try tauto.
  intros (Hdis & Hnames & Hlen & Hsub & Hcross).
  split; [discriminate|]. split; [exact Hdis|]. split; [exact Hnames|]. split; [exact Hlen|].
  split; [split; [apply IH; exact Hsub|exact I]|]. split.
  - intros w t1 t2 [|x [|y pre]] mid post E; cbn in E; inversion E. destruct mid; discriminate.
  - cbn [all_items_cs]. rewrite app_nil_r. exact Hcross.
Qed.

Theorem denote_accept_chain feat env l argv v :
  chain_ok l ->
  denote l argv = Accept v ->
  run_inner feat env (compile_options l) None argv = OutOk v.
Proof. intros Hok. apply denote_accept_tree. apply chain_ok_tree. exact Hok. Qed.

Lemma mem_bytes_in w l : mem_bytes w l = true -> In w l.
Proof.
  unfold mem_bytes. intros H. apply existsb_exists in H. destruct H as (d & Hd & E). apply beqb_eq in E. subst. exact Hd.
Qed.
Lemma in_mem_bytes w l : In w l -> mem_bytes w l = true.
Proof.
  intros H. unfold mem_bytes. apply existsb_exists. exists w. split; [exact H|apply beqb_refl].
Qed.

Definition tnames (t : ctriple) : list bytes := let '(name, aliases, _) := t in name :: aliases.

Lemma cs_names_list cs : cs_names cs = map tnames (cs_list cs).
Proof. induction cs as [|name aliases sub rest IH]; cbn; [reflexivity|]. rewrite IH. reflexivity. Qed.

Lemma names_uniqueb_sound ts w : names_uniqueb (map tnames ts) = true -> unique_match w ts.
Proof.
  induction ts as [|x r IH]; intros H t1 t2 pre mid post E M1 M2.
  - destruct pre; discriminate.
  - cbn [map names_uniqueb] in H. apply andb_prop in H. destruct H as [Hx Hr].
    destruct pre as [|p pre]; cbn in E; inversion E; subst.
    + rewrite forallb_forall in Hx. specialize (Hx (tnames t2)).
      assert (Hin : In (tnames t2) (map tnames (mid ++ t2 :: post))) by (apply in_map; apply in_or_app; right; left; reflexivity).
      specialize (Hx Hin). rewrite forallb_forall in Hx.
      destruct t1 as [[n1 a1] s1]. destruct t2 as [[n2 a2] s2]. cbn [cmatch tnames] in *.
      specialize (Hx w (mem_bytes_in _ _ M1)). rewrite M2 in Hx. discriminate.
    + eapply (IH Hr t1 t2 pre mid post); eauto.
Qed.

Fixpoint tree_okb_sound (l : level) : tree_okb l = true -> tree_ok l
with tree_okb_cs_sound (cs : clist) : tree_okb_cs cs = true -> tree_ok_cs cs.
Proof.
  - destruct l as [items tail]. destruct tail as [|ps|cs]; cbn [tree_okb tree_ok].
    + apply flat_okb_sound.
    + apply flat_okb_sound.
    + intros H. apply andb_prop in H. destruct H as [H H7]. apply andb_prop in H. destruct H as [H H6].
      apply andb_prop in H. destruct H as [H H5]. apply andb_prop in H. destruct H as [H H4].
      apply andb_prop in H. destruct H as [H H3]. apply andb_prop in H. destruct H as [H1 H2].
      split; [destruct cs; [discriminate|discriminate]|].
      split; [apply disjointb_sound; exact H2|]. split; [apply Forall_forall; rewrite forallb_forall in H3; exact H3|].
      split; [apply Nat.leb_le; exact H4|]. split; [apply (tree_okb_cs_sound cs); exact H5|].
      split; [intros w; apply names_uniqueb_sound; rewrite <- cs_names_list; exact H6|].
      intros it it' a Hit Hit' Ma Mb. rewrite forallb_forall in H7. specialize (H7 it Hit).
      rewrite forallb_forall in H7. specialize (H7 it' Hit'). apply negb_true_iff in H7.
      eapply share_false_no_common; eauto.
  - destruct cs as [|name aliases sub rest]; cbn [tree_okb_cs tree_ok_cs]; [auto|].
    intros H. apply andb_prop in H. destruct H as [H1 H2]. split; [apply (tree_okb_sound sub); exact H1|apply (tree_okb_cs_sound rest); exact H2].
Qed.

(* C08 on conventional trees: a level that offers subcommands is a sentence exactly through ONE of
   them -- the scan stops at the first free word naming it, everything to its right is judged by
   that subcommand's own grammar (with the enclosing items as ancestors), and its value comes last
   in the enclosing result; the parser returns exactly that *)
Theorem tree_cmd_value feat env items cs argv v :
  tree_ok (Level items (TCmds cs)) ->
  denote (Level items (TCmds cs)) argv = Accept v ->
  let st := short_tables (compile_options (Level items (TCmds cs))) in
  let ts := mark_tokens (tokenize (fst st) (snd st) argv) in
  exists a sub rest vs sv,
    scan items [] (TCmds cs) ts = ScCmd a sub rest /\
    denote_level (length ts) sub ([] ++ items) rest = Accept sv /\
    items_values items 0 (at_occ a) = Some vs /\
    v = VTuple (vs ++ [sv]) /\
    run_inner feat env (compile_options (Level items (TCmds cs))) None argv = OutOk v.
Proof.
  intros Hok Hd. pose proof (denote_accept_tree feat env _ argv v Hok Hd) as Hr.
  cbn zeta. unfold denote in Hd.
  destruct (short_tables (compile_options (Level items (TCmds cs)))) as [sf sa]. cbn [fst snd].
  destruct (t_ambiguity (tokenize sf sa argv)); [discriminate|].
  assert (El : length (mark_tokens (tokenize sf sa argv)) = length (t_items (tokenize sf sa argv)))
    by (unfold mark_tokens; apply mark_go_length).
  rewrite <- El in Hd. cbn [denote_level] in Hd.
  destruct (scan items [] (TCmds cs) (mark_tokens (tokenize sf sa argv))) as [a|a sub rest| |]; try discriminate.
  - destruct (items_values items 0 (at_occ a)); discriminate.
  - destruct (denote_level (length (mark_tokens (tokenize sf sa argv))) sub ([] ++ items) rest) as [sv| |] eqn:Es; try discriminate.
    destruct (items_values items 0 (at_occ a)) as [vs|] eqn:Ev; [|discriminate].
    inversion Hd; subst v. exists a, sub, rest, vs, sv. repeat split; auto.
Qed.
Print Assumptions tree_cmd_value.
