(* MsgOk.v -- C04 for error rendering: every failure a run reports carries a document.
   `failure`'s FStderr holds the document Message::render (Model/Message.v) built in the state and with the meta of
   the command level that reports the failure; None stands for a panic of the rendering (an index out of range, an
   unwrap of None, a panicking State::set_scope).  This file shows it is never None:
   (1) conflict marks name a position of the line as the winner, in every state reachable by legal steps
       (the premise of Reach.step for marks);
   (2) Message::render returns for every message that records only positions of the line, in such a state;
   (3) for EVERY parser of the model -- no well-formedness premise, adjacent groups with any members included --
       an error handed out by `eval` from a well-formed state records only positions of the line and scopes inside
       the ledger, and a failure handed out of a subcommand carries a document (`mok`): this is checked of the
       primitives and of what a command level reports; the combinators invent neither (Closure.v);
   (4) hence every failure of a whole run carries a document;
   and, for C06, a level whose parser fails with a conversion / guard failure reports exactly that message, with its
   text at the end of the document. *)
From BpafModel Require Import Message.
From BpafLemmas Require Import Tac Find TokLaws Reach Ledger TotalLaws TotalAll MessageLaws.
Import ListNotations.

Definition cw_ok (s : state) : Prop :=
  forall i w, nth_error (ist s) i = Some (Conflict w) -> w < length (ist s).

Lemma step_cw K s s' : step K s s' -> cw_ok s -> cw_ok s'.
Proof.
  intros St Hc. destruct St as [k ix s st HK Hin Hat Hp Hacc|s c|s p|s a b s' Hs|s ist' Hlen Hpres Hcw]; unfold cw_ok in *.
  - unfold sremove. destruct (in_scope s ix && _); [|exact Hc]. cbn [ist].
    intros i w H. rewrite update_nth_length. apply nth_update_nth in H. destruct H as [H|H]; [discriminate|eauto].
  - exact Hc.
  - exact Hc.
  - apply set_scope_fields in Hs. destruct Hs as (_ & -> & _). exact Hc.
  - cbn [ist set_ist]. intros i w H. destruct (Hcw i w H) as [H1|H1]; [exact H1|]. rewrite Hlen. eauto.
Qed.

Lemma reach_cw K s s' : reach K s s' -> cw_ok s -> cw_ok s'.
Proof. apply reach_inv, step_cw. Qed.

Definition GC (s : state) : Prop := G s /\ cw_ok s.

Lemma reach_GC K s s' : reach K s s' -> GC s -> GC s' /\ items s' = items s.
Proof. intros R [Hg Hc]. destruct (reach_G K s s' R Hg) as [G' I']. split; [split; [exact G'|eapply reach_cw; eauto]|exact I']. Qed.

Lemma G_len s : G s -> length (ist s) = length (items s).
Proof. intros [[H _] _]. exact H. Qed.

Definition fdoc_ok (f : failure) : Prop := match f with FStderr _ None => False | _ => True end.
(* as msg_ok (MessageLaws.v); a failure a subcommand already rendered must carry its document *)
Definition mok (n : nat) (m : message) : Prop :=
  match m with MsgParseFailure f => fdoc_ok f | _ => msg_ok n m end.
Definition eok (n : nat) (r : eres) : Prop := match r with RErr m => mok n m | _ => True end.
Definition sok (r : sres) : Prop := match r with SFail f => fdoc_ok f | _ => True end.
Lemma eok_err_ok n r : eok n r <-> err_ok (mok n) r.
Proof. reflexivity. Qed.
Lemma sok_level_ok n r : sok r <-> level_ok (mok n) r.
Proof. destruct r; reflexivity. Qed.

Definition okmsg (ev : evaluator) : Prop := forall s, GC s -> eok (length (items s)) (fst (ev s)).
Definition okrun (run : state -> sres * state) : Prop := forall s, GC s -> sok (fst (run s)).

Lemma missing_mok it s : G s -> mok (length (items s)) (missing_msg it s).
Proof.
  intros Hg. pose proof (G_len s Hg) as Hl. destruct Hg as [_ [[H1 H2] _]].
  cbn. constructor; [|constructor]. unfold miss_ok. cbn. lia.
Qed.

Lemma conflict_lt s loser winner : length (ist s) = length (items s) -> cw_ok s ->
  conflict s = Some (loser, winner) -> loser < length (items s) /\ winner < length (items s).
Proof.
  intros Hl Hc. unfold conflict. destruct (first_item_ix s) as [ix|] eqn:F; [|discriminate].
  destruct (ist_at s ix) as [[|w|]|] eqn:E; try discriminate. intros H; inversion H; subst.
  apply first_item_lt in F. destruct F as [a Ha]. split.
  - apply nth_error_Some. congruence.
  - rewrite <- Hl. apply (Hc loser). exact E.
Qed.

(* Message::render returns a document: for every message that records only positions of the line, in every
   state whose conflict marks do *)
Theorem render_message_returns msg s m :
  G s -> cw_ok s -> mok (length (items s)) msg ->
  match msg with MsgParseFailure _ => False | _ => True end ->
  render_message msg s m <> None.
Proof.
  intros Hg Hc Hm Hn. pose proof (G_len s Hg) as Hl. unfold render_message.
  destruct msg; try contradiction;
    try (cbn [pre_render]; apply render_plain_returns; exact Hm).
  - (* missing *) cbn [pre_render]. cbn in Hm. rewrite <- Hl in Hm.
    destruct (summarize_missing_renders xs m s Hm) as (r & -> & Hr). exact Hr.
  - (* unconsumed *) cbn [pre_render]. cbn in Hm.
    destruct (conflict s) as [[loser winner]|] eqn:C.
    + destruct (conflict_lt s loser winner Hl Hc C) as [A B].
      destruct (nth_some (items s) loser A) as [x Hx]. destruct (nth_some (items s) winner B) as [y Hy].
      cbn [render_doc]. rewrite Hx, Hy. discriminate.
    + destruct (only_once s ix) as [prev|].
      * destruct (nth_some (items s) ix Hm) as [x Hx]. cbn [render_doc]. rewrite Hx. discriminate.
      * destruct (suggest s m) as [[ix' sg]|] eqn:S.
        -- apply suggest_ix in S. destruct S as [a Ha]. eapply render_suggestion; eauto.
        -- apply render_plain_returns. exact Hm.
Qed.


(* the line is the same in every state of a run, so positions are measured against one list `its` *)
Definition on_line (its : list arg) (s : state) : Prop := GC s /\ items s = its.

Section WithEnv.
Variable env : bytes -> option bytes.

Lemma convert_eok n ty w s : eok n (fst (convert_res ty w s)).
Proof. unfold convert_res. destruct (convert ty w); exact I. Qed.

Lemma flag_okmsg n p a : okmsg (eval_flag env n p a).
Proof.
  intros s [Hg _]. unfold eval_flag. destruct (take_flag n s); [exact I|].
  destruct (env_first env (n_env n)); [exact I|]. destruct a; [exact I|].
  destruct (flag_item n); [apply missing_mok; exact Hg|]. destruct (n_env n); exact I.
Qed.

Lemma arg_okmsg n mv ty adj : okmsg (eval_arg env n mv ty adj).
Proof.
  intros s [Hg _]. unfold eval_arg, take_arg.
  destruct (find_item s _) as [key|] eqn:F.
  - apply find_item_some in F. destruct F as (_ & a & st & Ha & _).
    assert (Hlt : key < length (items s)) by (apply nth_error_Some; congruence).
    destruct (get s (S key)) as [[c ad os|l ad os|w|w|w]|]; try exact Hlt; apply convert_eok.
  - destruct (env_first env (n_env n)); [apply convert_eok|].
    destruct (arg_item n mv); [apply missing_mok; exact Hg|]. destruct (n_env n); exact I.
Qed.

Lemma pos_okmsg mv ty pos help : okmsg (eval_pos mv ty pos help).
Proof.
  intros s [Hg _]. unfold eval_pos. destruct (take_positional_word s) as [[[[ix st] w] s']|]; [|apply missing_mok; exact Hg].
  destruct pos; destruct st; try exact I; apply convert_eok.
Qed.

Lemma any_okmsg mv help check anywhere : okmsg (eval_any mv help check anywhere).
Proof.
  intros s [Hg _]. unfold eval_any.
  match goal with |- context [match ?f with Some ix => _ | None => _ end] => destruct f as [ix|] end; [|apply missing_mok; exact Hg].
  destruct (nth_error (items s) ix) as [a|]; [|apply missing_mok; exact Hg].
  destruct (check (arg_os a)); [exact I|apply missing_mok; exact Hg].
Qed.

Lemma run_finish_sok inf m s1 err :
  GC s1 -> mok (length (items s1)) err -> match err with MsgParseFailure _ => False | _ => True end ->
  sok (fst (run_finish env inf m s1 err)).
Proof.
  intros G1 He Hn. unfold run_finish. pose proof (info_eval_reach (fun _ => True) env inf s1 I I) as R2.
  destruct (info_eval env inf s1) as [[[d|ver]|] s3]; cbn [snd] in R2.
  - destruct (invariant_ok m); exact I.
  - exact I.
  - destruct (reach_GC _ s1 s3 R2 G1) as [[G2 C2] I2]. cbn [fst sok fdoc_ok].
    pose proof (render_message_returns err s3 m G2 C2) as Hr. rewrite I2 in Hr. specialize (Hr He Hn).
    destruct (render_message err s3 m); [exact I|congruence].
Qed.

Lemma run_sub_body_sok inf m s r s1 :
  GC s1 -> eok (length (items s1)) r -> sok (fst (run_sub_body env inf m s (r, s1))).
Proof.
  intros G1 N. rewrite run_sub_body_eq. destruct r as [v|e|w|]; try exact I.
  - destruct (first_item_ix s1) as [ix|] eqn:F; [|exact I]. apply run_finish_sok; [exact G1| |exact I].
    apply first_item_lt in F. destruct F as [a Ha]. cbn. apply nth_error_Some. congruence.
  - destruct (_ && i_help_if_no_args inf && Nat.eqb (remaining s) 0); [destruct (invariant_ok m); exact I|].
    cbn [eok] in N. destruct e; try (apply run_finish_sok; [exact G1|exact N|exact I]). exact N.
Qed.

Section Line.
Variable its : list arg.

Lemma reach_on_line s s' : reach_any s s' -> (on_line its) s -> (on_line its) s'.
Proof. intros R [Hg Hi]. destruct (reach_GC _ s s' R Hg) as [G' I']. split; [exact G'|congruence]. Qed.

Lemma on_line_inv_ok : inv_ok (on_line its).
Proof.
  split; intros; eapply reach_on_line; eauto; unfold reach_any; eauto using reach_current, reach_path, reach_scope, save_conflicts_reach.
Qed.

Lemma mok_msgs_ok : msgs_ok (on_line its) (mok (length its)).
Proof.
  split.
  - intros m. destruct m; cbn; try tauto. intros ->. constructor.
  - intros a b. apply combine_ok. cbn. intros x y Hx Hy. apply Forall_app. split; assumption.
  - intros it s [Hg <-]. apply missing_mok. exact (proj1 Hg).
Qed.

Lemma okmsg_errs ev : ev_reach (fun _ => True) ev -> okmsg ev -> errs (on_line its) (mok (length its)) ev.
Proof.
  intros R H. split; [intros s; exact (reach_on_line _ _ (R s))|]. intros s [Hg <-]. apply eok_err_ok, H, Hg.
Qed.

Lemma run_sub_errs q inf :
  errs (on_line its) (mok (length its)) (eval env q) -> errs_run (on_line its) (mok (length its)) (run_sub env (Options q inf)).
Proof.
  intros Hq. split; [intros s; exact (reach_on_line _ _ (run_sub_reach_any env _ s))|].
  intros s Hs. rewrite run_sub_eq. destruct (eval env q s) as [r s1] eqn:Ev.
  destruct (errs_at _ _ _ _ _ _ Hq Hs Ev) as [Q [G1 I1]]. rewrite <- I1 in Q.
  apply sok_level_ok, (run_sub_body_sok inf (meta_of q) s r s1 G1), eok_err_ok, Q.
Qed.

Theorem eval_errs_on_line :
  (forall p, errs (on_line its) (mok (length its)) (eval env p)) /\
  (forall ps, Forall (errs (on_line its) (mok (length its))) (evals env ps)) /\
  (forall o, errs_run (on_line its) (mok (length its)) (run_sub env o)).
Proof.
  destruct (eval_errs (on_line its) (mok (length its)) on_line_inv_ok mok_msgs_ok env (fun _ => True) (fun _ => True)) as (Hp & Hl & Ho).
  - intros n p a _. apply okmsg_errs; [apply eval_flag_reach; exact I|apply flag_okmsg].
  - intros n mv ty adj _. apply okmsg_errs; [apply eval_arg_reach; exact I|apply arg_okmsg].
  - intros mv ty pos help _. apply okmsg_errs; [apply eval_pos_reach; exact I|apply pos_okmsg].
  - intros mv help check anywhere _. apply okmsg_errs; [apply eval_any_reach; exact I|apply any_okmsg].
  - intros name aliases shorts help adjacent sub _ s. apply reach_on_line. apply take_cmd_any_reach. intros; exact I.
  - intros q inf _. apply run_sub_errs.
  - destruct every_true as (Tp & Tl & To). split; [|split]; intros; [apply Hp, Tp|apply Hl, Tl|apply Ho, To].
Qed.
End Line.

Theorem eval_okmsg_all : (forall p, okmsg (eval env p)) /\ (forall o, okrun (run_sub env o)).
Proof.
  split.
  - intros p s Hg. apply eok_err_ok. exact (proj2 (proj1 (eval_errs_on_line (items s)) p) s (conj Hg eq_refl)).
  - intros o s Hg. apply (sok_level_ok (length (items s))). exact (proj2 (proj2 (proj2 (eval_errs_on_line (items s))) o) s (conj Hg eq_refl)).
Qed.
End WithEnv.

Section Levels.
Variable env : bytes -> option bytes.

Lemma construct_cw sf sa name argv : cw_ok (fst (construct sf sa name argv)).
Proof.
  unfold construct. destruct (t_marker (tokenize sf sa argv)) as [ix|]; cbn [fst]; intros i w H; cbn [ist] in H.
  - apply nth_update_nth in H. destruct H as [H|H]; [discriminate|].
    apply nth_error_In in H. apply repeat_spec in H. discriminate.
  - apply nth_error_In in H. apply repeat_spec in H. discriminate.
Qed.

(* every failure of a whole run -- whichever command level reports it, the tokenizer's ambiguity message included --
   carries the document Message::render built for it *)
Theorem run_inner_renders feat o name argv : sok (fst (run_inner_state feat env o name argv)).
Proof.
  unfold run_inner_state, initial_state. destruct (short_tables o) as [sf sa].
  pose proof (construct_G sf sa name argv) as Hg. pose proof (construct_cw sf sa name argv) as Hc.
  destruct (construct sf sa name argv) as [st amb] eqn:C. cbn [fst] in *.
  destruct amb as [[ix short]|].
  - cbn [fst sok fdoc_ok].
    assert (Hm : mok (length (items st)) (MsgAmbiguity ix short)).
    { unfold construct in C. destruct (t_marker (tokenize sf sa argv)); injection C as Hs Ha.
      all: rewrite <- Hs; cbn [items]; unfold tokenize in *; apply tok_go_ambig in Ha; exact Ha. }
    pose proof (render_message_returns (MsgAmbiguity ix short) st (ometa_of o) Hg Hc Hm I) as Hr.
    destruct (render_message (MsgAmbiguity ix short) st (ometa_of o)); [exact I|congruence].
  - apply (proj2 (eval_okmsg_all env) o st). split; assumption.
Qed.

(* C06: when the parser of a level fails with a conversion / `parse` / guard failure, a run of that level that ends on
   stderr reports exactly that message (help / version requests and `fallback_to_usage` end on stdout), and the
   document it carries ends with the conversion error text / the guard's message *)
Theorem level_reports_failed_value q inf s s1 e m dd s2 :
  eval env q s = (RErr e, s1) ->
  match e with MsgParseFailed _ _ | MsgGuardFailed _ _ => True | _ => False end ->
  run_sub env (Options q inf) s = (SFail (FStderr m dd), s2) ->
  m = e /\
  exists d, dd = Some d /\
            match e with
            | MsgParseFailed _ t => exists pre, doc_text d = pre ++ m_colon_sp ++ t
            | MsgGuardFailed _ t => exists pre, doc_text d = pre ++ t
            | _ => True
            end.
Proof.
  intros E Hk H. rewrite run_sub_eq, E, run_sub_body_eq in H.
  assert (Hm : m = e /\ dd = render_message e s2 (meta_of q)).
  { destruct (_ && i_help_if_no_args inf && Nat.eqb (remaining s) 0); [destruct (invariant_ok (meta_of q)); discriminate|].
    assert (Hf : run_finish env inf (meta_of q) s1 e = (SFail (FStderr m dd), s2)) by (destruct e; try contradiction; exact H).
    unfold run_finish in Hf. destruct (info_eval env inf s1) as [[[d0|ver]|] s3].
    - destruct (invariant_ok (meta_of q)); discriminate.
    - discriminate.
    - inversion Hf; subst; split; reflexivity. }
  destruct Hm as [-> ->]. split; [reflexivity|]. unfold render_message.
  destruct e; try contradiction; cbn [pre_render].
  - destruct (render_doc (RPlain (MsgParseFailed ix m)) s2) as [d|] eqn:R; [|discriminate R].
    exists d. split; [reflexivity|]. eapply parse_failed_text; eauto.
  - destruct (render_doc (RPlain (MsgGuardFailed ix m)) s2) as [d|] eqn:R; [|discriminate R].
    exists d. split; [reflexivity|]. eapply guard_failed_text; eauto.
Qed.
End Levels.

Corollary run_inner_has_document env feat o name argv m :
  fst (run_inner_state feat env o name argv) <> SFail (FStderr m None).
Proof. intros H. pose proof (run_inner_renders env feat o name argv) as N. rewrite H in N. exact N. Qed.

Corollary run_sub_has_document env o s m : GC s -> fst (run_sub env o s) <> SFail (FStderr m None).
Proof. intros Hg H. pose proof (proj2 (eval_okmsg_all env) o s Hg) as N. rewrite H in N. exact N. Qed.
