(* HelpWins.v -- what Info::eval / run_subparser do with the help and version flags, and C10 for definitions
   without subcommands (adjacent groups, also nested, are members since a failed
   group hands its caller's scope back: AdjTotal.adjacent_inscope): if the help flag stands on the
   line as an item of its own (and no item of the parser uses its names), the outcome is the help of this
   level -- whatever else is missing, duplicated or malformed.
   Why: (1) only subcommands produce a ready-made failure, so the parser's own error never pre-empts the
   lookup; (2) it neither panics nor runs out of fuel (TotalAll); (3) nobody can consume the help item, so
   it is still available -- and, the scope being kept (AdjTotal.memb_inscope), still in scope -- when
   Info::eval looks for it; a successful parse therefore has a leftover, and `remaining` (exact) is not 0. *)
From BpafModel Require Import Wf.
From BpafLemmas Require Import Tac Find Reach Ledger NoLoss C05Lemmas TotalLaws AdjTotal TotalAll CmdLaws OrderLaws.
Import ListNotations.

Theorem long_token_acceptors k l os :
  accepts k (Long l false os) = true ->
  (exists n, (k = KFlag n \/ k = KArgKey n) /\ mem_bytes l (n_long n) = true) \/
  (exists w, k = KCmd w /\ beqb os w = true) \/ k = KAny.
Proof.
  destruct k; cbn; intros H; try discriminate; auto.
  - left. exists n. rewrite andb_true_r in H. auto.
  - left. exists n. rewrite andb_true_r in H. auto.
  - right. left. eauto.
Qed.

(* a level whose parser ends in an error of its own, or in a value with something left over, looks for the help and
   version flags before anything else -- unless fallback_to_usage pre-empts it *)
Lemma run_sub_body_finishes env inf m s r s1 :
  (forall f, r <> RErr (MsgParseFailure f)) -> (forall w, r <> RPanic w) -> r <> RFuel ->
  (forall v, r = ROk v -> first_item_ix s1 <> None) ->
  (i_help_if_no_args inf && Nat.eqb (remaining s) 0 = false) ->
  exists err, run_sub_body env inf m s (r, s1) = run_finish env inf m s1 err.
Proof.
  intros Hpf Hp Hf Hleft Hno. rewrite run_sub_body_eq. destruct r as [v|e|w|].
  - destruct (first_item_ix s1) eqn:Hfi; [eauto|]. exfalso. eapply Hleft; eauto.
  - rewrite <- andb_assoc, Hno, andb_false_r. destruct e; eauto. exfalso. eapply Hpf; eauto.
  - exfalso. eapply Hp; eauto.
  - exfalso. apply Hf. reflexivity.
Qed.

Theorem help_found env inf m s r s1 s2 :
  (forall f, r <> RErr (MsgParseFailure f)) -> (forall w, r <> RPanic w) -> r <> RFuel ->
  (forall v, r = ROk v -> first_item_ix s1 <> None) ->
  (i_help_if_no_args inf && Nat.eqb (remaining s) 0 = false) ->
  take_flag (i_help_arg inf) s1 = Some s2 -> invariant_ok m = true ->
  exists detailed s3,
    run_sub_body env inf m s (r, s1) = (SFail (FStdout (HHelp (path s3) inf m detailed)), s3).
Proof.
  intros Hpf Hp Hf Hleft Hno Ht Hinv.
  destruct (run_sub_body_finishes env inf m s r s1 Hpf Hp Hf Hleft Hno) as [err ->].
  unfold run_finish, info_eval. rewrite (eval_flag_taken env _ VUnit None s1 s2 Ht), Hinv.
  destruct (eval_flag env (i_help_arg inf) VUnit None s2) as [r2 s3]. destruct r2; eexists; eexists; reflexivity.
Qed.

(* construct!(required --foo, cmd) on `cmd --help`: the parent reports its own missing field, not the help of cmd *)
Definition refuted_seq_parser : oparser :=
  Options (PCon (PCons (PFlag (mkNamed [] [[102;111;111]%N] [] None) VUnit None)
                (PCons (PCmd [99;109;100]%N [] [] None false
                             (Options (PFlag (mkNamed [120%N] [] [] None) (VBool true) (Some (VBool false)))
                                      default_info))
                 PNil)))
          default_info.

Definition refuted_seq_line : list bytes := [[99;109;100]%N; [45;45;104;101;108;112]%N].

Theorem refuted_seq :
  exists ms, run_inner (mkFeat true true false) (fun _ => None) refuted_seq_parser None refuted_seq_line
             = OutStderr (MsgMissing ms).
Proof. eexists. vm_compute. reflexivity. Qed.

Definition npf (r : eres) : Prop := forall f, r <> RErr (MsgParseFailure f).

Lemma npf_plain r : npf r <-> plain r.
Proof. reflexivity. Qed.

Lemma npf_ok v : npf (ROk v).  Proof. intros f H; discriminate. Qed.
Lemma npf_panic w : npf (RPanic w).  Proof. intros f H; discriminate. Qed.
Lemma npf_fuel : npf RFuel.  Proof. intros f H; discriminate. Qed.

(* only subcommands produce a ready-made failure: a definition without one never reports it *)
Theorem memb_npf env p : memb p = true -> forall s, npf (fst (eval env p s)).
Proof.
  intros Hm s. apply npf_plain, err_ok_plain.
  destruct (eval_errs_plain (fun _ => True) not_failure env (fun p => memb p = true) (fun _ => False)) as (Hp & _).
  - split; intros; exact I.
  - apply not_failure_msgs_ok.
  - intros m H. exact H.
  - intros n p0 a _ x _. exact I.
  - intros n mv ty adj _ x _. exact I.
  - intros mv ty pos help _ x _. exact I.
  - intros mv help check anywhere _ x _. exact I.
  - intros. exact I.
  - intros q inf [].
  - exact (proj2 (Hp p (proj1 memb_every p Hm)) s I).
Qed.

Section Wins.
Variable env : bytes -> option bytes.

(* An item that no consumer of the parser accepts is still there when the parser has run: it cannot have been consumed
   (every consumption is by an accepting consumer: Ledger.ext_entries), and the scope is kept (AdjTotal.memb_inscope).
   So whoever looks next for something the item qualifies for finds something; a successful parse has a leftover. *)
Lemma level_with_survivor p s i a r s1 :
  memb p = true -> okp p = true -> kinds_ok (fun k => accepts k a = false) p ->
  G s -> nth_error (items s) i = Some a -> live s i -> in_scope s i = true ->
  eval env p s = (r, s1) ->
  npf r /\ nf r /\ 1 <= remaining s /\ items s1 = items s /\
  forall f, f i a = true -> exists j, find_item s1 f = Some j.
Proof.
  intros Hm Hok Hk Hg Ha Hl Hin E.
  pose proof (memb_npf env p Hm s) as Hnpf.
  pose proof (proj1 (eval_total_all env) p Hok s Hg) as Hnf.
  pose proof (proj1 (eval_reach_all (fun k => accepts k a = false) env) p Hk s) as Hr.
  pose proof (proj1 (memb_inscope env) p Hm s) as Hrel.
  rewrite E in Hnpf, Hnf, Hr, Hrel. cbn [fst snd] in *.
  destruct Hrel as ((S1 & S2) & I1 & _).
  split; [exact Hnpf|]. split; [exact Hnf|]. split; [exact (remaining_pos s i Hg Hin Hl)|]. split; [exact I1|].
  assert (Hl1 : live s1 i).
  { apply reach_ext in Hr. destruct Hr as [l X].
    assert (Hlt : i < length (ist s1)) by (rewrite (ext_len _ _ _ _ X); apply live_lt, Hl).
    destruct (lt_live_or_dead s1 i Hlt) as [L|D]; [exact L|exfalso].
    pose proof (ext_complete _ _ _ _ X i Hl D) as Hc. apply in_map_iff in Hc. destruct Hc as [[i' k] [Hf Hik]].
    cbn in Hf. subst i'. destruct (ext_entries _ _ _ _ X i k Hik) as (Hkk & _ & _ & Hacc).
    specialize (Hacc a Ha). cbn in Hkk. congruence. }
  unfold live, present_at in Hl1. destruct (ist_at s1 i) as [st|] eqn:Hst; [|discriminate].
  cbn in Hl1. assert (Hp : present st = true) by congruence.
  assert (Hin1 : in_scope s1 i = true) by (unfold in_scope in *; rewrite S1, S2; exact Hin).
  rewrite <- I1 in Ha.
  intros f Hf. destruct (find_item_complete s1 f i a st Hin1 Ha Hst Hp Hf) as (j & Fj & _). exists j. exact Fj.
Qed.

Theorem help_wins p inf s i a :
  memb p = true -> okp p = true -> invariant_ok (meta_of p) = true ->
  kinds_ok (fun k => accepts k a = false) p ->
  G s -> nth_error (items s) i = Some a -> live s i -> in_scope s i = true ->
  matches_arg (i_help_arg inf) false a = true ->
  exists detailed s3,
    run_sub env (Options p inf) s = (SFail (FStdout (HHelp (path s3) inf (meta_of p) detailed)), s3).
Proof.
  intros Hm Hok Hinv Hk Hg Ha Hl Hin Hmatch. rewrite run_sub_eq.
  destruct (eval env p s) as [r s1] eqn:E.
  destruct (level_with_survivor p s i a r s1 Hm Hok Hk Hg Ha Hl Hin E) as (Hnpf & Hnf & Hrem & _ & Hfind).
  destruct (Hfind (fun _ a0 => matches_arg (i_help_arg inf) false a0) Hmatch) as [j Fj].
  destruct (Hfind (fun _ _ => true) eq_refl) as [j0 F0].
  apply (help_found env inf (meta_of p) s r s1 (sremove (KFlag (i_help_arg inf)) j s1)).
  - exact Hnpf.
  - intros w ->. exact Hnf.
  - intros ->. exact Hnf.
  - intros v _. unfold first_item_ix. rewrite F0. discriminate.
  - apply andb_false_iff. right. apply Nat.eqb_neq. lia.
  - unfold take_flag. rewrite Fj. reflexivity.
  - exact Hinv.
Qed.
End Wins.

Theorem help_wins_run_inner feat env p inf name argv st i a :
  memb p = true -> oko (Options p inf) = true ->
  kinds_ok (fun k => accepts k a = false) p ->
  initial_state (Options p inf) name argv = (st, None) ->
  nth_error (items st) i = Some a -> live st i ->
  matches_arg (i_help_arg inf) false a = true ->
  exists pth detailed, run_inner feat env (Options p inf) name argv = OutStdout (HHelp pth inf (meta_of p) detailed).
Proof.
  intros Hm Hok Hk Hi Ha Hl Hmatch. cbn [oko] in Hok. apply andb_prop in Hok. destruct Hok as [Hokp Hinv].
  unfold run_inner, run_inner_state. rewrite Hi.
  unfold initial_state in Hi. destruct (short_tables (Options p inf)) as [sf sa].
  pose proof (construct_G sf sa name argv) as Hg. pose proof (construct_ok sf sa name argv) as Hio.
  rewrite Hi in Hg, Hio. cbn [fst] in Hg, Hio.
  assert (Hin : in_scope st i = true).
  { destruct Hio as [Hw [F1 F2] _]. unfold in_scope. rewrite F1, F2. apply live_lt in Hl. unfold lenwf in Hw.
    apply andb_true_intro. split; [apply Nat.leb_le; lia|apply Nat.ltb_lt; lia]. }
  destruct (help_wins env p inf st i a Hm Hokp Hinv Hk Hg Ha Hl Hin Hmatch) as (d & s3 & E).
  rewrite E. cbn. eauto.
Qed.

Section Version.
Variable env : bytes -> option bytes.

Lemma eval_flag_not_taken n p s : take_flag n s = None -> n_env n = [] ->
  snd (eval_flag env n p None s) = s /\ forall v, fst (eval_flag env n p None s) <> ROk v.
Proof.
  intros Ht He. unfold eval_flag. rewrite Ht, He. cbn [env_first].
  destruct (flag_item n); cbn; split; try reflexivity; intros v H; discriminate.
Qed.

Theorem version_found inf m s r s1 s2 v :
  (forall f, r <> RErr (MsgParseFailure f)) -> (forall w, r <> RPanic w) -> r <> RFuel ->
  (forall x, r = ROk x -> first_item_ix s1 <> None) ->
  (i_help_if_no_args inf && Nat.eqb (remaining s) 0 = false) ->
  take_flag (i_help_arg inf) s1 = None -> n_env (i_help_arg inf) = [] ->
  i_version inf = Some v -> take_flag (i_version_arg inf) s1 = Some s2 ->
  run_sub_body env inf m s (r, s1) = (SFail (FStdout (HVersion v)), s2).
Proof.
  intros Hpf Hp Hf Hleft Hno Hh Hhe Hv Ht.
  destruct (run_sub_body_finishes env inf m s r s1 Hpf Hp Hf Hleft Hno) as [err ->].
  unfold run_finish, info_eval. destruct (eval_flag_not_taken (i_help_arg inf) VUnit s1 Hh Hhe) as [E1 E2].
  destruct (eval_flag env (i_help_arg inf) VUnit None s1) as [r1 s1']. cbn [fst snd] in E1, E2. subst s1'.
  destruct r1 as [x| | |]; [exfalso; eapply E2; reflexivity| | |];
    rewrite Hv, (eval_flag_taken env _ VUnit None s1 s2 Ht); reflexivity.
Qed.

(* the version flag as an item of its own, a version configured, no help flag on the line *)
Theorem version_wins p inf s i a v :
  memb p = true -> okp p = true ->
  kinds_ok (fun k => accepts k a = false) p ->
  G s -> nth_error (items s) i = Some a -> live s i -> in_scope s i = true ->
  i_version inf = Some v -> matches_arg (i_version_arg inf) false a = true ->
  n_env (i_help_arg inf) = [] ->
  (forall j b, nth_error (items s) j = Some b -> live s j -> matches_arg (i_help_arg inf) false b = false) ->
  exists s3, run_sub env (Options p inf) s = (SFail (FStdout (HVersion v)), s3).
Proof.
  intros Hm Hok Hk Hg Ha Hl Hin Hv Hmatch Hhe Hnohelp. rewrite run_sub_eq.
  destruct (eval env p s) as [r s1] eqn:E.
  destruct (level_with_survivor env p s i a r s1 Hm Hok Hk Hg Ha Hl Hin E) as (Hnpf & Hnf & Hrem & I1 & Hfind).
  destruct (Hfind (fun _ a0 => matches_arg (i_version_arg inf) false a0) Hmatch) as [j Fj].
  destruct (Hfind (fun _ _ => true) eq_refl) as [j0 F0].
  assert (Hnh : take_flag (i_help_arg inf) s1 = None).
  { unfold take_flag. destruct (find_item s1 (fun _ a0 => matches_arg (i_help_arg inf) false a0)) as [h|] eqn:F; [|reflexivity].
    exfalso. apply find_item_some in F. destruct F as (_ & b & stb & Hb & Hsb & Hpb & Hmb). cbn in Hmb.
    rewrite I1 in Hb.
    pose proof (eval_reach_any env p s) as Hr0. rewrite E in Hr0.
    assert (Lh : live s h).
    { apply (reach_mono (fun _ => True) s s1 h Hr0). unfold live, present_at. rewrite Hsb. cbn. rewrite Hpb. reflexivity. }
    rewrite (Hnohelp h b Hb Lh) in Hmb. discriminate. }
  exists (sremove (KFlag (i_version_arg inf)) j s1).
  apply (version_found inf (meta_of p) s r s1 _ v); try assumption.
  - intros w ->. exact Hnf.
  - intros ->. exact Hnf.
  - intros x _. unfold first_item_ix. rewrite F0. discriminate.
  - apply andb_false_iff. right. apply Nat.eqb_neq. lia.
  - unfold take_flag. rewrite Fj. reflexivity.
Qed.
End Version.

(* help after a subcommand's name (C08) *)
Theorem help_after_name env name aliases shorts help q inf s s1 cur s2 i a :
  take_cmd_any ((name :: aliases) ++ map utf8_encode_char shorts) s = (true, s1) ->
  current s1 = Some cur -> set_scope s1 cur (sc_end s1) = Some s2 ->
  memb q = true -> okp q = true -> invariant_ok (meta_of q) = true ->
  kinds_ok (fun k => accepts k a = false) q ->
  G s2 -> nth_error (items s2) i = Some a -> live s2 i -> in_scope s2 i = true ->
  matches_arg (i_help_arg inf) false a = true ->
  exists detailed s4,
    eval env (PCmd name aliases shorts help false (Options q inf)) s =
    (RErr (MsgParseFailure (FStdout (HHelp (path s4) inf (meta_of q) detailed))), s4).
Proof.
  intros Ht Hc Hs Hm Hok Hinv Hk Hg Ha Hl Hin Hmatch.
  rewrite eval_PCmd. cbn [ometa_of oinfo_of].
  rewrite (CmdLaws.cmd_enter name aliases shorts help (meta_of q) inf (run_sub env (Options q inf)) s s1 cur s2 Ht Hc Hs).
  set (s3 := set_path s2 (path s2 ++ [name])).
  assert (Hg3 : G s3) by exact Hg.
  destruct (help_wins env q inf s3 i a Hm Hok Hinv Hk Hg3 Ha Hl Hin Hmatch) as (d & s4 & E).
  rewrite E. eauto.
Qed.
