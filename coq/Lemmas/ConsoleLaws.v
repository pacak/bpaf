(* ConsoleLaws.v -- render_console (src/buffer/console.rs), C13 and C04: the width only decides where
   white space goes; what the short form shows of a help text; the renderer returns. *)
From Coq Require Import Lia.
From BpafModel Require Import Console.
Import ListNotations.

Definition strip (s : str) : str := filter (fun c => negb (is_ws c)) s.

Lemma strip_app a b : strip (a ++ b) = strip a ++ strip b.
Proof. apply filter_app. Qed.

Lemma strip_rev a : strip (rev a) = rev (strip a).
Proof.
  induction a as [|c a IH]; cbn; [reflexivity|].
  rewrite strip_app, IH. cbn. destruct (is_ws c); cbn; [rewrite app_nil_r; reflexivity|reflexivity].
Qed.

Lemma strip_push_rev x r : strip (push_rev x r) = rev (strip x) ++ strip r.
Proof. unfold push_rev. rewrite rev_append_rev, strip_app, strip_rev. reflexivity. Qed.

Lemma strip_cons_nl r : strip (nl :: r) = strip r.
Proof. reflexivity. Qed.

Lemma strip_tick r : strip (tick :: r) = tick :: strip r.
Proof. reflexivity. Qed.

Lemma strip_drop_ws r : strip (drop_while is_ws r) = strip r.
Proof.
  induction r as [|c r IH]; cbn; [reflexivity|].
  destruct (is_ws c) eqn:E; cbn; [exact IH|rewrite E; reflexivity].
Qed.

Lemma strip_pad n : strip (pad n) = [].
Proof. unfold pad. induction (N.to_nat n) as [|k IH]; cbn; [reflexivity|exact IH]. Qed.

Lemma strip_space : strip [sp] = [].
Proof. reflexivity. Qed.

Lemma beqb_eq a b : beqb a b = true -> a = b.
Proof.
  revert b. induction a as [|x a IH]; intros [|y b] H; cbn in H; try discriminate; [reflexivity|].
  apply andb_prop in H. destruct H as [H1 H2]. apply N.eqb_eq in H1. subst. f_equal. auto.
Qed.

(* raw_step first settles where the chunk starts: behind the pending line breaks, or on a fresh
   line when it does not fit there -- a lone space is then dropped (`guard`; nothing of this before
   anything is written).  Then it puts the chunk there, behind the indentation up to the margin and
   the gutter that follows a long definition term. *)
Definition guard (mw : N) (s : str) (st : cstate_r) : str * N * bool :=
  if is_nil (rres st) then (rres st, char_pos st, false)
  else
    let '(ra, cpa) :=
      if (pend_nl st || pend_blank st) && negb (ends_nl (rres st))
      then (nl :: rres st, 0%N) else (rres st, char_pos st) in
    let rb := if pend_blank st && negb (ends_nlnl ra) then nl :: ra else ra in
    if (mw <? cpa + blen s)%N
    then (nl :: drop_while is_ws rb, 0%N, beqb s [sp])
    else (rb, cpa, false).

(* indices: the output so far and the column where the chunk starts, and whether it is dropped *)
Inductive guarded (mw : N) (s : str) (st : cstate_r) : str -> N -> bool -> Prop :=
| G_first : rres st = [] -> guarded mw s st [] (char_pos st) false
| G_wrap k : guarded mw s st (nl :: drop_while is_ws (repeat nl k ++ rres st)) 0%N (beqb s [sp])
| G_keep k cp : rres st <> [] -> (cp = char_pos st \/ cp = 0%N /\ k <> O) -> (cp + blen s <= mw)%N ->
    guarded mw s st (repeat nl k ++ rres st) cp false.

Lemma guard_cases mw s st :
  guarded mw s st (fst (fst (guard mw s st))) (snd (fst (guard mw s st))) (snd (guard mw s st)).
Proof.
  assert (Fit : forall k cp, rres st <> [] -> (cp = char_pos st \/ cp = 0%N /\ k <> O) ->
    let g := if (mw <? cp + blen s)%N then (nl :: drop_while is_ws (repeat nl k ++ rres st), 0%N, beqb s [sp])
             else (repeat nl k ++ rres st, cp, false) in
    guarded mw s st (fst (fst g)) (snd (fst g)) (snd g)).
  { intros k cp Hn Hc. destruct (mw <? cp + blen s)%N eqn:Hw; [apply G_wrap|].
    apply G_keep; [exact Hn|exact Hc|apply N.ltb_ge, Hw]. }
  unfold guard. destruct (is_nil (rres st)) eqn:En.
  - destruct (rres st) eqn:Er; [|discriminate]. apply G_first. exact Er.
  - assert (Hn : rres st <> []) by (intros E; rewrite E in En; discriminate).
    destruct ((pend_nl st || pend_blank st) && negb (ends_nl (rres st))).
    + destruct (pend_blank st && negb (ends_nlnl (nl :: rres st))).
      * apply (Fit 2 0%N Hn). right. split; [reflexivity|discriminate].
      * apply (Fit 1 0%N Hn). right. split; [reflexivity|discriminate].
    + destruct (pend_blank st && negb (ends_nlnl (rres st))).
      * apply (Fit 1 (char_pos st) Hn). left. reflexivity.
      * apply (Fit 0 (char_pos st) Hn). left. reflexivity.
Qed.

(* `i` columns of indentation, a gutter of `g` *)
Inductive raw_result (mw : N) (s : str) (w : N) (st : cstate_r) : cstate_r -> Prop :=
| RR_drop r1 cp1 : guarded mw s st r1 cp1 true ->
    raw_result mw s w st
      (mkCR r1 cp1 (skip st) (margins st) (pend_nl st) (pend_blank st) (pend_margin st) (cpanic st))
| RR_put r1 cp1 i g cp : guarded mw s st r1 cp1 false ->
    ((cp1 <= cur_margin (margins st) /\ cp1 + i = cur_margin (margins st)) \/
     (cur_margin (margins st) < cp1 /\ i = 0))%N ->
    (g = 0 \/ i < 2 /\ g = 2 - i)%N -> (cp = cp1 + i + g + w)%N ->
    raw_result mw s w st
      (mkCR (push_rev s (push_rev (pad g) (push_rev (pad i) r1))) cp
            (skip st) (margins st) false false false (cpanic st)).

Lemma raw_step_cases mw s w st : raw_result mw s w st (raw_step mw s w st).
Proof.
  unfold raw_step. fold (guard mw s st). pose proof (guard_cases mw s st) as G.
  destruct (guard mw s st) as [[r1 cp1] skipit]. cbn [fst snd] in G.
  destruct skipit; [apply RR_drop; exact G|].
  set (margin := cur_margin (margins st)).
  destruct (cp1 <=? margin)%N eqn:Hm.
  - apply N.leb_le in Hm. destruct (pend_margin st && _ && (margin - cp1 <? 2)%N) eqn:Hg; rewrite !orb_false_r.
    + apply andb_prop in Hg. destruct Hg as [_ Hg]. apply N.ltb_lt in Hg.
      apply (RR_put mw s w st r1 cp1 (margin - cp1) (2 - (margin - cp1)) _ G); lia.
    + apply (RR_put mw s w st r1 cp1 (margin - cp1) 0 _ G); lia.
  - apply N.leb_gt in Hm. destruct (pend_margin st && _ && (0 <? 2)%N); rewrite !orb_false_r.
    + apply (RR_put mw s w st r1 cp1 0 2 _ G); lia.
    + apply (RR_put mw s w st r1 cp1 0 0 _ G); lia.
Qed.

Lemma strip_nls k r : strip (repeat nl k ++ r) = strip r.
Proof. induction k as [|k IH]; [reflexivity|exact IH]. Qed.

Lemma guarded_strip {mw s st r1 cp1 b} : guarded mw s st r1 cp1 b -> strip r1 = strip (rres st).
Proof.
  intros G. destruct G as [E|k|k cp _ _ _].
  - rewrite E. reflexivity.
  - rewrite strip_cons_nl, strip_drop_ws. apply strip_nls.
  - apply strip_nls.
Qed.

Lemma guarded_drop {mw s st r1 cp1 b} : guarded mw s st r1 cp1 b -> b = true -> s = [sp] /\ cp1 = 0%N.
Proof.
  intros G. destruct G as [E|k|k cp _ _ _]; intros Hb; try discriminate.
  split; [apply beqb_eq, Hb|reflexivity].
Qed.

Lemma raw_step_content mw s w st :
  strip (rres (raw_step mw s w st)) = rev (strip s) ++ strip (rres st) /\
  skip (raw_step mw s w st) = skip st.
Proof.
  destruct (raw_step_cases mw s w st) as [r1 cp1 G|r1 cp1 i g cp G _ _ _]; cbn [rres skip].
  - destruct (guarded_drop G eq_refl) as [-> _]. rewrite strip_space, (guarded_strip G). auto.
  - rewrite !strip_push_rev, !strip_pad, (guarded_strip G). auto.
Qed.

Definition same_content (a b : cstate_r) : Prop := strip (rres a) = strip (rres b) /\ skip a = skip b.

Lemma chunks_step_same full w1 w2 cs a b :
  same_content a b -> same_content (chunks_step full w1 cs a) (chunks_step full w2 cs b).
Proof.
  revert a b. induction cs as [|c cs IH]; intros a b [H1 H2]; cbn; [split; assumption|].
  destruct c as [s w| |].
  - apply IH. destruct (raw_step_content w1 s w a) as [A1 A2].
    destruct (raw_step_content w2 s w b) as [B1 B2]. split; congruence.
  - destruct full.
    + apply IH. unfold same_content. cbn [rres skip]. rewrite !strip_cons_nl. split; assumption.
    + unfold same_content. cbn [rres skip]. rewrite !strip_cons_nl. split; [assumption|reflexivity].
  - apply IH. unfold same_content. cbn [rres skip]. rewrite !strip_cons_nl. split; assumption.
Qed.

Lemma token_step_same docgen full w1 w2 ts1 ts2 a b t :
  same_content a b -> same_content (token_step docgen full w1 ts1 a t) (token_step docgen full w2 ts2 b t).
Proof.
  intros [H1 H2]. destruct t as [sty s|blk|blk]; cbn [token_step].
  2, 3: destruct blk; split; cbn [set_flags rres skip]; rewrite ?strip_tick, ?H1, ?H2; reflexivity.
  rewrite <- H2. destruct (Nat.ltb 0 (skip a)); [split; assumption|].
  apply chunks_step_same. split; assumption.
Qed.

Lemma fold_same docgen full w1 w2 ts1 ts2 d a b :
  same_content a b ->
  same_content (fold_left (token_step docgen full w1 ts1) d a) (fold_left (token_step docgen full w2 ts2) d b).
Proof.
  revert a b. induction d as [|t d IH]; intros a b H; cbn; [exact H|].
  apply IH. apply token_step_same. exact H.
Qed.

(* C13, content preservation *)
Theorem render_content docgen full w1 w2 d o1 o2 :
  render_console docgen full w1 d = Some o1 ->
  render_console docgen full w2 d = Some o2 ->
  strip o1 = strip o2.
Proof.
  unfold render_console, render_state. intros H1 H2.
  pose proof (fold_same docgen full w1 w2 (tabstop_go d false 0 0 + 4)%N (tabstop_go d false 0 0 + 4)%N
                     d init_cr init_cr (conj eq_refl eq_refl)) as [Hs _].
  destruct (cpanic _) in H1; [discriminate|]. destruct (cpanic _) in H2; [discriminate|].
  inversion H1; inversion H2; subst. rewrite !strip_rev. f_equal.
  destruct (pend_nl _ || pend_blank _); destruct (pend_nl _ || pend_blank _); cbn; rewrite ?strip_cons_nl; exact Hs.
Qed.

(* every margin within bpaf's PADDING constant (50 columns).  The renderer does not depend on it:
   a wider margin is padded in pieces (render_console_returns holds for every document) *)
Definition margins_small (st : cstate_r) : Prop := forall m, In m (margins st) -> (m <= 50)%N.

Fixpoint until_para (cs : list chunk) : list chunk :=
  match cs with
  | [] => []
  | CPara :: _ => []
  | c :: t => c :: until_para t
  end.
Fixpoint has_para (cs : list chunk) : bool :=
  match cs with [] => false | CPara :: _ => true | _ :: t => has_para t end.

Definition para_state (st' : cstate_r) : cstate_r :=
  mkCR (nl :: rres st') 0%N 1 (margins st') (pend_nl st') (pend_blank st') (pend_margin st') (cpanic st').

(* in the short form a text shows exactly its first paragraph, then everything is skipped *)
Theorem short_is_first_paragraph mw cs st :
  chunks_step false mw cs st =
  let st' := chunks_step true mw (until_para cs) st in
  if has_para cs then para_state st' else st'.
Proof.
  revert st. induction cs as [|c cs IH]; intros st; cbn; [reflexivity|].
  destruct c as [s w| |]; cbn.
  - rewrite IH. reflexivity.
  - reflexivity.
  - rewrite IH. reflexivity.
Qed.

Theorem skipping_ignores_text docgen full mw ts st sty s :
  skip st <> 0 -> token_step docgen full mw ts st (CText sty s) = st.
Proof.
  intros H. cbn. destruct (skip st); [congruence|reflexivity].
Qed.

(* A help text is embedded as an inline block (Doc::doc) holding text tokens.  In the short form the
   block shows the texts before the first paragraph break and the first paragraph of the text holding
   the break; every later token of the block is skipped, and the end of the block switches
   skipping off again, so that the next help text starts afresh. *)
Fixpoint short_texts (docgen : bool) (mw : N) (d : list (style * str)) (st : cstate_r) : cstate_r :=
  match d with
  | [] => st
  | (_, s) :: t =>
    let cs := split docgen s in
    if has_para cs then para_state (chunks_step true mw (until_para cs) st)
    else short_texts docgen mw t (chunks_step true mw cs st)
  end.

Definition texts (d : list (style * str)) : cdoc := map (fun x => CText (fst x) (snd x)) d.

Lemma raw_step_skip mw s w st : skip (raw_step mw s w st) = skip st.
Proof. exact (proj2 (raw_step_content mw s w st)). Qed.

Lemma chunks_full_skip mw cs st : skip (chunks_step true mw cs st) = skip st.
Proof.
  revert st. induction cs as [|c cs IH]; intros st; cbn; [reflexivity|].
  destruct c as [s w| |]; cbn; rewrite IH; cbn; [apply raw_step_skip|reflexivity|reflexivity].
Qed.

Lemma skipping_texts docgen full mw ts d st :
  skip st <> 0 -> fold_left (token_step docgen full mw ts) (texts d) st = st.
Proof.
  revert st. induction d as [|[sty s] d IH]; intros st H; cbn [texts map fold_left]; [reflexivity|].
  cbn [fst snd]. rewrite skipping_ignores_text by exact H. apply IH. exact H.
Qed.

Lemma until_para_all cs : has_para cs = false -> until_para cs = cs.
Proof.
  induction cs as [|c cs IH]; cbn; [reflexivity|]. destruct c; intros H; try discriminate; rewrite IH by exact H; reflexivity.
Qed.

Theorem short_block docgen mw ts d st :
  skip st = 0 ->
  fold_left (token_step docgen false mw ts) (texts d) st = short_texts docgen mw d st.
Proof.
  revert st. induction d as [|[sty s] d IH]; intros st H; cbn [texts map fold_left short_texts]; [reflexivity|].
  cbn [fst snd]. fold (texts d).
  assert (E : token_step docgen false mw ts st (CText sty s) = chunks_step false mw (split docgen s) st).
  { cbn. rewrite H. reflexivity. }
  rewrite E, short_is_first_paragraph. cbv zeta.
  destruct (has_para (split docgen s)) eqn:Hp.
  - apply skipping_texts. cbn. discriminate.
  - rewrite until_para_all by exact Hp. apply IH. rewrite chunks_full_skip. exact H.
Qed.

Lemma short_texts_skip docgen mw d st : skip st = 0 -> skip (short_texts docgen mw d st) <= 1.
Proof.
  revert st. induction d as [|[sty s] d IH]; intros st H; cbn [short_texts].
  - rewrite H. auto.
  - destruct (has_para (split docgen s)); [cbn; auto|]. apply IH. rewrite chunks_full_skip. exact H.
Qed.

Theorem short_block_closes docgen mw ts d st :
  skip st = 0 ->
  skip (fold_left (token_step docgen false mw ts) (CStart BInlineBlock :: texts d ++ [CEnd BInlineBlock]) st) = 0.
Proof.
  intros H. cbn [fold_left]. rewrite fold_left_app. cbn [fold_left].
  set (st0 := token_step docgen false mw ts st (CStart BInlineBlock)).
  assert (H0 : skip st0 = 0) by (unfold st0; cbn; rewrite H; reflexivity).
  rewrite short_block by exact H0.
  pose proof (short_texts_skip docgen mw d st0 H0) as Hle.
  cbn [token_step set_flags skip].
  destruct (skip (short_texts docgen mw d st0)) as [|[|n]]; cbn [pred]; try reflexivity.
  exfalso. apply le_S_n in Hle. inversion Hle.
Qed.

(* NOT the case for a text that embeds a further document: a paragraph break inside the inner block
   is forgotten at the inner block's end (the counter only counts blocks opened while skipping) *)
Lemma short_nested_witness :
  let a := 97%N in let b := 98%N in let c := 99%N in
  let d := [CStart BInlineBlock; CStart BInlineBlock; CText SText [a; 10; 10; b]%N; CEnd BInlineBlock;
            CText SText [c]; CEnd BInlineBlock] in
  render_console false true 100%N d = Some [a; 10; b; c]%N /\
  render_console false false 100%N d = Some [a; 10; c]%N.
Proof. split; vm_compute; reflexivity. Qed.

(* the only panic site would be the padding: a margin above the 50 columns of PADDING (deeply nested
   em_doc blocks in a help text) is padded in pieces, so the model's panic flag is never raised *)
Lemma raw_step_cpanic mw s w st : cpanic (raw_step mw s w st) = cpanic st.
Proof. destruct (raw_step_cases mw s w st); reflexivity. Qed.

Lemma chunks_step_cpanic full mw cs : forall st, cpanic (chunks_step full mw cs st) = cpanic st.
Proof.
  induction cs as [|c cs IH]; intros st; cbn [chunks_step]; [reflexivity|].
  destruct c as [s w| |].
  - rewrite IH. apply raw_step_cpanic.
  - destruct full; [rewrite IH|]; reflexivity.
  - rewrite IH. reflexivity.
Qed.

Lemma token_step_cpanic docgen full mw ts st t : cpanic (token_step docgen full mw ts st t) = cpanic st.
Proof.
  destruct t as [sty s|b|b]; cbn [token_step].
  - destruct (Nat.ltb 0 (skip st)); [reflexivity|apply chunks_step_cpanic].
  - destruct b; reflexivity.
  - destruct b; reflexivity.
Qed.

Theorem render_console_returns docgen full mw d : render_console docgen full mw d <> None.
Proof.
  unfold render_console, render_state.
  assert (H : forall ts l st, cpanic (fold_left (token_step docgen full mw ts) l st) = cpanic st).
  { intros ts l. induction l as [|t l IH]; intros st; cbn [fold_left]; [reflexivity|]. rewrite IH. apply token_step_cpanic. }
  rewrite H. cbn. discriminate.
Qed.
