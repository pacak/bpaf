(* AbsSim.v -- the evaluator of the flat fragment (flags, arguments, positionals, construct!,
   optional / many / some / count / last / fallback) depends on the ledger only through its LIVE
   TOKENS: a second interpreter over lists of (index, token) pairs -- find / remove / lookup on a
   list, no state, no scope, no ghost log -- simulates it from every state whose scope ends with the
   ledger (any scope start).  What C01 says about the compiled conventional parser is then list
   reasoning.  Also: a relation between the list before and after that holds of an evaluator holds of
   every wrapper over it (AClosed); the flat fragment never touches the command path. *)
From BpafModel Require Import Conv.
From BpafLemmas Require Import Tac Find Reach Ledger.
Import ListNotations.

Definition lv := list (nat * arg).

Inductive ares :=
| AOk (v : val)
| AErr (missing catchable : bool)      (* is_missing e, can_catch e *)
| AStuck.                              (* loop fuel exhausted *)

Definition afind (f : arg -> bool) (l : lv) : option (nat * arg) := find (fun p => f (snd p)) l.
Definition aremove (i : nat) (l : lv) : lv := filter (fun p => negb (Nat.eqb (fst p) i)) l.
Definition aget (i : nat) (l : lv) : option arg := option_map snd (find (fun p => Nat.eqb (fst p) i) l).

Definition is_word (a : arg) : bool := match a with Word _ | PosWord _ => true | _ => false end.

Definition aeval_flag (n : named) (present : val) (absent : option val) (l : lv) : ares * lv :=
  match afind (matches_arg n false) l with
  | Some (i, _) => (AOk present, aremove i l)
  | None => match absent with Some a => (AOk a, l) | None => (AErr true true, l) end
  end.

Definition aconvert (ty : vty) (w : bytes) (l : lv) : ares * lv :=
  match convert ty w with inl v => (AOk v, l) | inr _ => (AErr false false, l) end.

Definition aeval_arg (n : named) (ty : vty) (l : lv) : ares * lv :=
  match afind (matches_arg n false) l with
  | None => (AErr true true, l)
  | Some (i, _) =>
    match aget (S i) l with
    | Some (Word w) | Some (ArgWord w) => aconvert ty w (aremove (S i) (aremove i l))
    | _ => (AErr false false, l)
    end
  end.

Definition aeval_pos (ty : vty) (l : lv) : ares * lv :=
  match afind is_word l with
  | Some (i, Word w) | Some (i, PosWord w) => aconvert ty w (aremove i l)
  | _ => (AErr true true, l)
  end.

Inductive aopt := AONone | AOSome (v : val) | AOErr (missing catchable : bool) | AOStuck.

Definition aparse_option (ev : lv -> ares * lv) (len : option nat) (l : lv) : aopt * option nat * lv :=
  let '(r, l') := ev l in
  match r with
  | AOk v => if lt_len (length l') len then (AOSome v, Some (length l'), l') else (AONone, len, l')
  | AErr missing catchable =>
    if (missing && Nat.eqb (length l) (length l')) || (negb missing && catchable)
    then (AONone, len, l) else (AOErr missing catchable, len, l')
  | AStuck => (AOStuck, len, l')
  end.

Fixpoint amany_loop (ev : lv -> ares * lv) (fuel : nat) (len : option nat) (l : lv) (acc : list val)
  : ares * list val * lv :=
  match fuel with
  | O => (AStuck, acc, l)
  | S f =>
    match aparse_option ev len l with
    | (AOSome v, len', l') => amany_loop ev f len' l' (v :: acc)
    | (AONone, _, l') => (AOk VUnit, acc, l')
    | (AOErr m c, _, l') => (AErr m c, acc, l')
    | (AOStuck, _, l') => (AStuck, acc, l')
    end
  end.

Fixpoint acount_loop (ev : lv -> ares * lv) (fuel : nat) (len : option nat) (l : lv)
         (cur n : nat) (last : option val) : ares * nat * option val * lv :=
  match fuel with
  | O => (AStuck, n, last, l)
  | S f =>
    match aparse_option ev len l with
    | (AOSome v, len', l') =>
      if Nat.eqb cur (length l') then (AOk VUnit, S n, Some v, l')
      else acount_loop ev f len' l' (length l') (S n) (Some v)
    | (AONone, _, l') => (AOk VUnit, n, last, l')
    | (AOErr m c, _, l') => (AErr m c, n, last, l')
    | (AOStuck, _, l') => (AStuck, n, last, l')
    end
  end.

Definition aoptional (ev : lv -> ares * lv) (l : lv) : ares * lv :=
  match aparse_option ev None l with
  | (AOSome v, _, l') => (AOk (VSome v), l')
  | (AONone, _, l') => (AOk VNone, l')
  | (AOErr m c, _, l') => (AErr m c, l')
  | (AOStuck, _, l') => (AStuck, l')
  end.
Definition amany (fuel : nat) (ev : lv -> ares * lv) (l : lv) : ares * lv :=
  match amany_loop ev fuel None l [] with
  | (AOk _, acc, l') => (AOk (VList (rev acc)), l')
  | (r, _, l') => (r, l')
  end.
Definition asome (fuel : nat) (ev : lv -> ares * lv) (l : lv) : ares * lv :=
  match amany_loop ev fuel None l [] with
  | (AOk _, [], l') => (AErr false true, l')
  | (AOk _, acc, l') => (AOk (VList (rev acc)), l')
  | (r, _, l') => (r, l')
  end.
Definition acount (fuel : nat) (ev : lv -> ares * lv) (l : lv) : ares * lv :=
  match acount_loop ev fuel None l (length l) O None with
  | (AOk _, n, _, l') => (AOk (VNum (Z.of_nat n)), l')
  | (r, _, _, l') => (r, l')
  end.
Definition alast (fuel : nat) (ev : lv -> ares * lv) (l : lv) : ares * lv :=
  match acount_loop ev fuel None l (length l) O None with
  | (AOk _, _, Some v, l') => (AOk v, l')
  | (AOk _, _, None, l') => ev l'
  | (r, _, _, l') => (r, l')
  end.
Definition afallback (ev : lv -> ares * lv) (v : val) (l : lv) : ares * lv :=
  match ev l with
  | (AOk r, l') => (AOk r, l')
  | (AErr m c, l') => if c then (AOk v, l) else (AErr m c, l)
  | (AStuck, l') => (AStuck, l')
  end.

Fixpoint acon_go (evs : list (lv -> ares * lv)) (l : lv) (acc : list val) (err : option (bool * bool))
  : ares * lv :=
  match evs with
  | [] => match err with Some (m, c) => (AErr m c, l) | None => (AOk (VTuple (rev acc)), l) end
  | ev :: t =>
    let '(r, l') := ev l in
    match r with
    | AOk v => acon_go t l' (v :: acc) err
    | AErr m c => acon_go t l' acc (match err with Some _ => err | None => Some (m, c) end)
    | AStuck => (AStuck, l')
    end
  end.

Fixpoint aeval (fuel : nat) (p : parser) (l : lv) {struct p} : ares * lv :=
  match p with
  | PFlag n pr ab => aeval_flag n pr ab l
  | PArg n _ ty _ => aeval_arg n ty l
  | PPos _ ty _ _ => aeval_pos ty l
  | POptional q _ => aoptional (aeval fuel q) l
  | PMany q _ => amany fuel (aeval fuel q) l
  | PSome q _ _ => asome fuel (aeval fuel q) l
  | PCount q => acount fuel (aeval fuel q) l
  | PLast q => alast fuel (aeval fuel q) l
  | PFallback q v _ => afallback (aeval fuel q) v l
  | PCon fields => acon_go (aevals fuel fields) l [] None
  | _ => (AStuck, l)
  end
with aevals (fuel : nat) (ps : plist) {struct ps} : list (lv -> ares * lv) :=
  match ps with
  | PNil => []
  | PCons q t => aeval fuel q :: aevals fuel t
  end.

Fixpoint flatp (p : parser) {struct p} : bool :=
  match p with
  | PFlag n _ _ => named_ok n
  | PArg n _ _ adj => named_ok n && negb adj
  | PPos _ _ pos _ => match pos with Unrestricted => true | _ => false end
  | POptional q c | PMany q c | PSome q _ c => negb c && flatp q
  | PCount q | PLast q | PFallback q _ _ => flatp q
  | PCon fields => match fields with PCons _ (PCons _ _) => lflatp fields | _ => false end
  | _ => false
  end
with lflatp (ps : plist) {struct ps} : bool :=
  match ps with
  | PNil => true
  | PCons q t => flatp q && lflatp t
  end.

Fixpoint view_from (ix : nat) (its : list arg) (sts : list istate) : lv :=
  match its, sts with
  | a :: its', st :: sts' => (if present st then [(ix, a)] else []) ++ view_from (S ix) its' sts'
  | _, _ => []
  end.
Definition view (s : state) : lv :=
  view_from (sc_start s) (skipn (sc_start s) (items s)) (skipn (sc_start s) (ist s)).

Record Sim (n : nat) (s : state) (l : lv) : Prop := mkSim {
  sim_items : length (items s) = n;
  sim_ist : length (ist s) = n;
  sim_start : sc_start s <= n;
  sim_end : sc_end s = n;
  sim_view : view s = l;
  sim_rem : remaining s = length l }.

Lemma view_from_in ix its sts i a :
  In (i, a) (view_from ix its sts) <->
  exists k st, i = ix + k /\ nth_error its k = Some a /\ nth_error sts k = Some st /\ present st = true.
Proof.
  revert ix sts. induction its as [|b t IH]; intros ix [|st sts]; cbn;
    try (split; [contradiction|intros (k & st' & _ & H1 & H2 & _); destruct k; (discriminate H1 || discriminate H2)]).
  rewrite in_app_iff, IH. split.
  - intros [H|(k & st' & -> & H)].
    + destruct (present st) eqn:P; [|contradiction]. destruct H as [H|[]]. inversion H; subst.
      exists 0, st. rewrite Nat.add_0_r. auto.
    + exists (S k), st'. rewrite Nat.add_succ_r. auto.
  - intros (k & st' & -> & H1 & H2 & H3). destruct k as [|k]; cbn in H1, H2.
    + inversion H1; inversion H2; subst. rewrite H3, Nat.add_0_r. left. left. reflexivity.
    + right. exists k, st'. rewrite Nat.add_succ_r. auto.
Qed.

Lemma view_from_lb ix its sts p : In p (view_from ix its sts) -> ix <= fst p.
Proof. destruct p as [i a]. intros H. apply view_from_in in H. destruct H as (k & _ & -> & _). apply Nat.le_add_r. Qed.

(* the first components of a view are strictly increasing, hence distinct *)
Lemma view_from_unique ix its sts i a b :
  In (i, a) (view_from ix its sts) -> In (i, b) (view_from ix its sts) -> a = b.
Proof.
  intros H1 H2. apply view_from_in in H1. apply view_from_in in H2.
  destruct H1 as (k & st & E1 & A1 & _). destruct H2 as (k' & st' & E2 & A2 & _).
  assert (k = k') by lia. subst. congruence.
Qed.

Lemma find_from_view f ix its sts e :
  ix + length its <= e ->
  find_from (fun _ a => f a) ix its sts e = option_map fst (afind f (view_from ix its sts)).
Proof.
  revert ix sts. induction its as [|a t IH]; intros ix [|st sts] He; cbn in *; try reflexivity.
  assert (Hlt : Nat.ltb ix e = true) by (apply Nat.ltb_lt; lia). rewrite Hlt.
  destruct (present st) eqn:P; cbn.
  - unfold afind. cbn. destruct (f a); [reflexivity|]. apply IH; lia.
  - apply IH; lia.
Qed.

Lemma find_item_view n s l f :
  Sim n s l -> find_item s (fun _ a => f a) = option_map fst (afind f l).
Proof.
  intros [Hi Hs H0 He Hv _]. unfold find_item. rewrite He. subst l.
  unfold view. apply find_from_view; rewrite !skipn_length; lia.
Qed.

Lemma afind_in f l i a : afind f l = Some (i, a) -> In (i, a) l /\ f a = true.
Proof. unfold afind. intros H. apply find_some in H. exact H. Qed.

Lemma view_in n s l i a :
  Sim n s l -> (In (i, a) l <-> sc_start s <= i /\ nth_error (items s) i = Some a /\ present_at s i = Some true).
Proof.
  intros HS. rewrite <- (sim_view _ _ _ HS). unfold view, present_at, ist_at. rewrite view_from_in. split.
  - intros (k & st & -> & H1 & H2 & H3). rewrite nth_error_skipn in H1. rewrite nth_error_skipn in H2. rewrite H2. cbn [option_map]. rewrite H3. split; [apply Nat.le_add_r|auto].
  - intros (Hle & H1 & H2). destruct (nth_error (ist s) i) as [st|] eqn:E; [|discriminate]. inversion H2.
    exists (i - sc_start s), st. rewrite !nth_error_skipn. replace (sc_start s + (i - sc_start s)) with i by lia. auto.
Qed.

Lemma view_live n s l i a :
  Sim n s l -> In (i, a) l ->
  sc_start s <= i /\ in_scope s i = true /\ nth_error (items s) i = Some a /\
  exists st, ist_at s i = Some st /\ present st = true.
Proof.
  intros HS Hin. apply (view_in _ _ _ _ _ HS) in Hin. destruct Hin as (Hle & Ha & Hp).
  split; [exact Hle|]. split; [|split; [exact Ha|]].
  - apply in_scope_iff. rewrite (sim_end _ _ _ HS), <- (sim_items _ _ _ HS). split; [exact Hle|].
    apply nth_error_Some. congruence.
  - unfold present_at in Hp. destruct (ist_at s i) as [st|]; [|discriminate]. inversion Hp. eauto.
Qed.

Lemma aget_some i l a : aget i l = Some a -> In (i, a) l.
Proof.
  unfold aget. destruct (find _ l) as [[j b]|] eqn:F; [|discriminate]. apply find_some in F. destruct F as [H E].
  apply Nat.eqb_eq in E. cbn in *. intros X. inversion X. subst. exact H.
Qed.

Lemma aget_view n s l i :
  Sim n s l -> get s i = aget i l.
Proof.
  intros HS. destruct (aget i l) as [a|] eqn:G.
  - apply aget_some in G. destruct (view_live _ _ _ _ _ HS G) as (_ & Hsc & Ha & st & Es & Hp).
    unfold get. rewrite Hsc, Es, Hp. exact Ha.
  - destruct (get s i) as [a|] eqn:E; [|reflexivity]. exfalso.
    apply get_some in E. destruct E as (Esc & Ea & st & Es & Ep).
    assert (Hin : In (i, a) l).
    { apply (view_in _ _ _ _ _ HS). apply in_scope_iff in Esc. unfold present_at. rewrite Es. cbn [option_map]. rewrite Ep. split; [apply Esc|auto]. }
    unfold aget in G. destruct (find _ l) eqn:F; [discriminate|].
    pose proof (find_none _ _ F _ Hin) as Hn. cbn in Hn. rewrite Nat.eqb_refl in Hn. discriminate.
Qed.

Lemma filter_all {A} (f : A -> bool) l : (forall x, In x l -> f x = true) -> filter f l = l.
Proof.
  induction l as [|x t IH]; intros H; cbn; [reflexivity|].
  rewrite (H x (or_introl eq_refl)). f_equal. apply IH. intros y Hy. apply H. right. exact Hy.
Qed.

Lemma view_from_remove ix its sts k st :
  nth_error sts k = Some st -> present st = true -> length sts = length its ->
  view_from ix its (update_nth k Parsed sts) = aremove (ix + k) (view_from ix its sts) /\
  S (length (view_from ix its (update_nth k Parsed sts))) = length (view_from ix its sts).
Proof.
  revert ix sts k. induction its as [|a t IH]; intros ix [|s0 sts] k Hk Hp Hl; try discriminate Hl; [destruct k; discriminate|].
  unfold aremove. cbn [view_from]. rewrite filter_app. destruct k as [|k]; cbn [update_nth view_from nth_error] in *.
  - inversion Hk; subst s0. rewrite Hp, Nat.add_0_r. cbn [present filter fst app length]. rewrite Nat.eqb_refl. cbn [negb].
    rewrite filter_all; [auto|]. intros p Hin. apply view_from_lb in Hin.
    apply negb_true_iff, Nat.eqb_neq. lia.
  - injection Hl as Hl. destruct (IH (S ix) sts k Hk Hp Hl) as [E1 E2].
    split; [|rewrite !app_length; lia]. rewrite Nat.add_succ_r, E1. f_equal.
    destruct (present s0); [|reflexivity]. cbn [filter fst].
    replace (Nat.eqb ix (S (ix + k))) with false by (symmetry; apply Nat.eqb_neq; lia). reflexivity.
Qed.

Lemma skipn_update {A} a i (v : A) l : a <= i ->
  skipn a (update_nth i v l) = update_nth (i - a) v (skipn a l).
Proof.
  revert i l. induction a as [|a IH]; intros i l H; [rewrite Nat.sub_0_r; reflexivity|].
  destruct l as [|x t].
  - destruct i as [|i]; [lia|]. cbn. destruct (i - a); reflexivity.
  - destruct i as [|i]; [lia|]. cbn. apply IH. lia.
Qed.

Lemma sremove_sim n s l k i a :
  Sim n s l -> In (i, a) l -> Sim n (sremove k i s) (aremove i l).
Proof.
  intros HS Hin. destruct (view_live _ _ _ _ _ HS Hin) as (Hle & Hsc & _ & st & Es & Hp).
  rewrite (sremove_eff k i s st Hsc Es Hp). destruct HS as [Hi Hs H0 He Hv Hr]. unfold view in Hv.
  assert (Es' : nth_error (skipn (sc_start s) (ist s)) (i - sc_start s) = Some st).
  { rewrite nth_error_skipn. replace (sc_start s + (i - sc_start s)) with i by lia. exact Es. }
  destruct (view_from_remove (sc_start s) (skipn (sc_start s) (items s)) (skipn (sc_start s) (ist s)) (i - sc_start s) st Es' Hp
              ltac:(rewrite !skipn_length; lia)) as [E1 E2].
  replace (sc_start s + (i - sc_start s)) with i in E1 by lia. rewrite Hv in E1, E2.
  constructor; cbn; auto.
  - rewrite update_nth_length. exact Hs.
  - unfold view. cbn. rewrite skipn_update by exact Hle. exact E1.
  - rewrite <- E1. lia.
Qed.

Lemma set_current_sim n s l c : Sim n s l -> Sim n (set_current s c) l.
Proof. intros [A B C D E F]. constructor; auto. Qed.

Lemma count_present_view ist its a :
  length ist = length its ->
  count_present ist a (length its) = length (view_from a (skipn a its) (skipn a ist)).
Proof.
  intros Hl. unfold count_present.
  assert (E : firstn (length its - a) (skipn a ist) = skipn a ist).
  { apply firstn_all2. rewrite skipn_length. lia. }
  rewrite E. clear E.
  assert (G : forall ix its' sts', length sts' = length its' -> length (filter present sts') = length (view_from ix its' sts')).
  { intros ix its'. revert ix. induction its' as [|x t IH]; intros ix [|st sts] H; cbn in *; try discriminate; [reflexivity|].
    rewrite app_length. destruct (present st); cbn; rewrite (IH (S ix) sts); lia. }
  apply G. rewrite !skipn_length. lia.
Qed.

Definition rel (r : eres) (a : ares) : Prop :=
  match r, a with
  | ROk v, AOk v' => v = v'
  | RErr e, AErr m c => is_missing e = m /\ can_catch e = c
  | RFuel, AStuck => True
  | _, _ => False
  end.

Definition sim_ev (n : nat) (ev : evaluator) (aev : lv -> ares * lv) : Prop :=
  forall s l, Sim n s l -> rel (fst (ev s)) (fst (aev l)) /\ Sim n (snd (ev s)) (snd (aev l)).

(* `rel r a` determines a: the abstract result of a concrete one that is not a panic *)
Definition ares_of (r : eres) : ares :=
  match r with ROk v => AOk v | RErr e => AErr (is_missing e) (can_catch e) | _ => AStuck end.
Definition no_panic (r : eres) : Prop := match r with RPanic _ => False | _ => True end.

Lemma rel_iff r a : rel r a <-> no_panic r /\ a = ares_of r.
Proof. destruct r, a; cbn; intuition congruence. Qed.

(* simulated pairs, in the shape the bodies are run on: the abstract run is rewritten away *)
Definition simp (n : nat) (x : eres * state) (y : ares * lv) : Prop :=
  no_panic (fst x) /\ y = (ares_of (fst x), snd y) /\ Sim n (snd x) (snd y).

Lemma sim_ev_iff n ev aev : sim_ev n ev aev <-> forall s l, Sim n s l -> simp n (ev s) (aev l).
Proof.
  unfold sim_ev, simp. split; intros H s l HS; specialize (H s l HS); rewrite rel_iff in *.
  - destruct (aev l) as [a l1]. cbn [fst snd] in *. destruct H as [[Np ->] S1]. auto.
  - destruct H as (Np & E & S1). rewrite E. auto.
Qed.

Section WithEnv.
Variable env : bytes -> option bytes.

Lemma named_ok_env n : named_ok n = true -> env_first env (n_env n) = None.
Proof.
  unfold named_ok. intros H. apply andb_prop in H. destruct H as [H _].
  destruct (n_env n); [reflexivity|discriminate].
Qed.

Lemma named_ok_item n : named_ok n = true -> exists sl, shortlong_of n = Some sl.
Proof.
  unfold named_ok, shortlong_of. intros H. apply andb_prop in H. destruct H as [_ H].
  destruct (n_short n), (n_long n); cbn in H; try discriminate; eauto.
Qed.

Lemma simp_here n r a s l : Sim n s l -> rel r a -> simp n (r, s) (a, l).
Proof. intros HS R. apply rel_iff in R. destruct R as [Np ->]. split; auto. Qed.

Lemma flag_sim n nm pr ab : named_ok nm = true -> sim_ev n (eval_flag env nm pr ab) (aeval_flag nm pr ab).
Proof.
  intros Hok. apply sim_ev_iff. intros s l HS. unfold eval_flag, aeval_flag, take_flag.
  rewrite (find_item_view n s l _ HS).
  destruct (afind (matches_arg nm false) l) as [[i a]|] eqn:F; cbn [option_map fst].
  - apply afind_in in F. destruct F as [Hin _]. apply simp_here; [eapply sremove_sim; eauto|reflexivity].
  - rewrite (named_ok_env nm Hok). destruct ab as [a|]; [apply simp_here; [exact HS|reflexivity]|].
    destruct (named_ok_item nm Hok) as [sl Hsl]. unfold flag_item. rewrite Hsl.
    apply simp_here; [exact HS|split; reflexivity].
Qed.

Lemma convert_sim n ty w s l : Sim n s l -> simp n (convert_res ty w s) (aconvert ty w l).
Proof.
  intros HS. unfold convert_res, aconvert. destruct (convert ty w); apply simp_here; cbn; auto.
Qed.

Lemma arg_sim n nm mv ty : named_ok nm = true -> sim_ev n (eval_arg env nm mv ty false) (aeval_arg nm ty).
Proof.
  intros Hok. apply sim_ev_iff. intros s l HS. unfold eval_arg, aeval_arg, take_arg.
  rewrite (find_item_view n s l _ HS).
  destruct (afind (matches_arg nm false) l) as [[i a]|] eqn:F; cbn [option_map fst].
  - rewrite (aget_view n s l (S i) HS). apply afind_in in F. destruct F as [Hin _].
    assert (Hgo : forall b, aget (S i) l = Some b ->
              Sim n (sremove (KArgVal nm) (S i) (sremove (KArgKey nm) i s)) (aremove (S i) (aremove i l))).
    { intros b G. apply aget_some in G. eapply sremove_sim; [eapply sremove_sim; eauto|].
      apply filter_In. split; [exact G|]. apply negb_true_iff, Nat.eqb_neq. cbn. lia. }
    destruct (aget (S i) l) as [[c adj os|nm' adj os|w|w|w]|]; try (apply simp_here; [exact HS|split; reflexivity]);
      apply convert_sim; eapply Hgo; reflexivity.
  - rewrite (named_ok_env nm Hok). destruct (named_ok_item nm Hok) as [sl Hsl]. unfold arg_item. rewrite Hsl.
    apply simp_here; [exact HS|split; reflexivity].
Qed.

Lemma pos_sim n mv ty help : sim_ev n (eval_pos mv ty Unrestricted help) (aeval_pos ty).
Proof.
  apply sim_ev_iff. intros s l HS. unfold eval_pos, aeval_pos, take_positional_word.
  change (fun (_ : nat) (a : arg) => match a with Word _ | PosWord _ => true | _ => false end)
    with (fun (_ : nat) (a : arg) => is_word a).
  rewrite (find_item_view n s l _ HS).
  destruct (afind is_word l) as [[i a]|] eqn:F; cbn [option_map fst].
  - apply afind_in in F. destruct F as [Hin Hw].
    destruct (view_live _ _ _ _ _ HS Hin) as (_ & _ & Ha & _). rewrite Ha.
    destruct a; try discriminate Hw; apply convert_sim; eapply sremove_sim; eauto.
  - apply simp_here; [exact HS|split; reflexivity].
Qed.

Section Bodies.
Variable n : nat.
Variable ev : evaluator.
Variable aev : lv -> ares * lv.
Hypothesis Hev : sim_ev n ev aev.
Let Hs := proj1 (sim_ev_iff n ev aev) Hev.

Definition aopt_of (o : opt_res) : aopt :=
  match o with
  | ONone => AONone
  | OSome v => AOSome v
  | OErr e => AOErr (is_missing e) (can_catch e)
  | _ => AOStuck
  end.

Lemma parse_option_sim len s l :
  Sim n s l ->
  let '(o, len1, s') := parse_option ev len s false in
  (forall w, o <> OPanic w) /\ exists l', aparse_option aev len l = (aopt_of o, len1, l') /\ Sim n s' l'.
Proof.
  intros HS. unfold parse_option, aparse_option. destruct (Hs s l HS) as (Np & -> & S1).
  destruct (ev s) as [r s1]. cbn [fst snd] in *. set (l1 := snd (aev l)) in *.
  destruct r as [v|e|w|]; cbn [ares_of]; try contradiction.
  - rewrite (sim_rem _ _ _ S1). destruct (lt_len (length l1) len); (split; [discriminate|eauto]).
  - rewrite (sim_rem _ _ _ HS), (sim_rem _ _ _ S1). cbn [orb].
    destruct ((is_missing e && Nat.eqb (length l) (length l1)) || (negb (is_missing e) && can_catch e));
      (split; [discriminate|eauto]).
  - split; [discriminate|eauto].
Qed.

Lemma many_loop_sim : forall fuel len s l acc, Sim n s l ->
  let '(r, acc1, s') := many_loop ev false fuel len s acc in
  no_panic r /\ exists l', amany_loop aev fuel len l acc = (ares_of r, acc1, l') /\ Sim n s' l'.
Proof.
  induction fuel as [|f IH]; intros len s l acc HS; cbn [many_loop amany_loop]; [cbn; eauto|].
  pose proof (parse_option_sim len s l HS) as P.
  destruct (parse_option ev len s false) as [[o len1] s1]. destruct P as (Np & l1 & -> & S1).
  destruct o; cbn [aopt_of]; [cbn; eauto|apply IH; exact S1|cbn; eauto|destruct (Np w eq_refl)|cbn; eauto].
Qed.

Lemma count_loop_sim : forall fuel len s l cur k last, Sim n s l ->
  let '(r, k1, last1, s') := count_loop ev fuel len s cur k last in
  no_panic r /\ exists l', acount_loop aev fuel len l cur k last = (ares_of r, k1, last1, l') /\ Sim n s' l'.
Proof.
  induction fuel as [|f IH]; intros len s l cur k last HS; cbn [count_loop acount_loop]; [cbn; eauto|].
  pose proof (parse_option_sim len s l HS) as P.
  destruct (parse_option ev len s false) as [[o len1] s1]. destruct P as (Np & l1 & -> & S1).
  destruct o; cbn [aopt_of]; [cbn; eauto| |cbn; eauto|destruct (Np w eq_refl)|cbn; eauto].
  rewrite (sim_rem _ _ _ S1). destruct (Nat.eqb cur _); [cbn; eauto|]. apply IH. exact S1.
Qed.

Lemma loop_fuel_sim s l : Sim n s l -> loop_fuel s = S (S n).
Proof. intros HS. unfold loop_fuel. rewrite (sim_items _ _ _ HS). reflexivity. Qed.

Lemma optional_sim : sim_ev n (optional_body ev false) (aoptional aev).
Proof.
  apply sim_ev_iff. intros s l HS. unfold optional_body, aoptional. pose proof (parse_option_sim None s l HS) as P.
  destruct (parse_option ev None s false) as [[o len1] s1]. destruct P as (Np & l1 & -> & S1).
  destruct o; cbn [aopt_of]; try (split; cbn; auto; fail). destruct (Np w eq_refl).
Qed.

Lemma many_sim : sim_ev n (many_body ev false) (amany (S (S n)) aev).
Proof.
  apply sim_ev_iff. intros s l HS. unfold many_body, amany. rewrite (loop_fuel_sim s l HS).
  pose proof (many_loop_sim (S (S n)) None s l [] HS) as P.
  destruct (many_loop ev false (S (S n)) None s []) as [[r acc1] s1]. destruct P as (Np & l1 & -> & S1).
  destruct r; try contradiction; split; cbn; auto.
Qed.

Lemma some_sim msg : sim_ev n (some_body ev msg false) (asome (S (S n)) aev).
Proof.
  apply sim_ev_iff. intros s l HS. unfold some_body, asome. rewrite (loop_fuel_sim s l HS).
  pose proof (many_loop_sim (S (S n)) None s l [] HS) as P.
  destruct (many_loop ev false (S (S n)) None s []) as [[r acc1] s1]. destruct P as (Np & l1 & -> & S1).
  destruct r; try contradiction; [destruct acc1|..]; split; cbn; auto.
Qed.

Lemma count_sim : sim_ev n (count_body ev) (acount (S (S n)) aev).
Proof.
  apply sim_ev_iff. intros s l HS. unfold count_body, acount. rewrite (loop_fuel_sim s l HS), (sim_rem _ _ _ HS).
  pose proof (count_loop_sim (S (S n)) None s l (length l) 0 None HS) as P.
  destruct (count_loop ev (S (S n)) None s (length l) 0 None) as [[[r k1] la1] s1]. destruct P as (Np & l1 & -> & S1).
  destruct r; try contradiction; split; cbn; auto.
Qed.

Lemma last_sim : sim_ev n (last_body ev) (alast (S (S n)) aev).
Proof.
  apply sim_ev_iff. intros s l HS. unfold last_body, alast. rewrite (loop_fuel_sim s l HS), (sim_rem _ _ _ HS).
  pose proof (count_loop_sim (S (S n)) None s l (length l) 0 None HS) as P.
  destruct (count_loop ev (S (S n)) None s (length l) 0 None) as [[[r k1] la1] s1]. destruct P as (Np & l1 & -> & S1).
  destruct r; try contradiction; [destruct la1; [|apply Hs, S1]|..]; split; cbn; auto.
Qed.

Lemma fallback_sim v : sim_ev n (fallback_body ev v) (afallback aev v).
Proof.
  apply sim_ev_iff. intros s l HS. unfold fallback_body, fallback_with_body, afallback. destruct (Hs s l HS) as (Np & -> & S1).
  destruct (ev s) as [r s1]. cbn [fst snd] in *.
  destruct r as [x|e|w|]; try contradiction; [|destruct (can_catch e) eqn:Ec|]; split; cbn; rewrite ?Ec; auto.
Qed.
End Bodies.

Definition aerr_of (e : option message) : option (bool * bool) :=
  option_map (fun m => (is_missing m, can_catch m)) e.

Lemma con_go_sim n evs aevs : Forall2 (sim_ev n) evs aevs ->
  forall s l first acc err, Sim n s l ->
  simp n (con_go false evs s first acc err) (acon_go aevs l acc (aerr_of err)).
Proof.
  induction 1 as [|ev aev evs aevs Hs Hl IH]; intros s l first acc err HS; cbn [con_go acon_go].
  - destruct err as [m|]; cbn; split; cbn; auto. split; [reflexivity|apply set_current_sim; exact HS].
  - destruct (proj1 (sim_ev_iff _ _ _) Hs s l HS) as (Np & -> & S1). destruct (ev s) as [r s1]. cbn [fst snd] in *.
    destruct r as [v|e|w|]; try contradiction; cbn [ares_of andb].
    + apply IH. exact S1.
    + replace (match aerr_of err with Some _ => aerr_of err | None => Some (is_missing e, can_catch e) end)
        with (aerr_of (match err with Some _ => err | None => Some e end)) by (destruct err; reflexivity).
      apply IH. exact S1.
    + split; cbn; auto.
Qed.

Lemma con_sim n evs aevs : Forall2 (sim_ev n) evs aevs ->
  sim_ev n (con_body false evs) (fun l => acon_go aevs l [] None).
Proof.
  intros H. apply sim_ev_iff. intros s l HS. unfold con_body, con_reset.
  destruct (con_go_sim n evs aevs H s l true [] None HS) as (Np & E & S1). cbn [aerr_of option_map] in *.
  destruct (con_go false evs s true [] None) as [r s1]. cbn [fst snd] in *.
  split; [exact Np|split; [exact E|apply set_current_sim; exact S1]].
Qed.

Theorem eval_sim_all n :
  (forall p, flatp p = true -> sim_ev n (eval env p) (aeval (S (S n)) p)) /\
  (forall ps, lflatp ps = true -> Forall2 (sim_ev n) (evals env ps) (aevals (S (S n)) ps)) /\
  (forall o : oparser, True).
Proof.
  apply parser_plist_oparser_ind; intros; try exact I; cbn [flatp lflatp] in *; try discriminate;
    rewrite ?andb_true_iff, ?negb_true_iff in *.
  - apply flag_sim. assumption.
  - destruct H as [H ->]. apply arg_sim. assumption.
  - destruct pos; try discriminate. apply pos_sim.
  - destruct fields as [|q1 [|q2 t]]; try discriminate. apply con_sim. auto.
  - destruct H0 as [-> Hq]. exact (optional_sim n _ _ (H Hq)).
  - destruct H0 as [-> Hq]. exact (many_sim n _ _ (H Hq)).
  - destruct H0 as [-> Hq]. exact (some_sim n _ _ (H Hq) _).
  - exact (count_sim n _ _ (H H0)).
  - exact (last_sim n _ _ (H H0)).
  - exact (fallback_sim n _ _ (H H0) _).
  - constructor.
  - destruct H1 as [Hq Ht]. rewrite evals_cons. cbn [aevals]. constructor; auto.
Qed.

Definition eval_sim n := proj1 (eval_sim_all n).
End WithEnv.

(* every wrapper hands back the list it was given, the list its evaluator left, or what a second
   evaluation leaves of that: a reflexive and transitive relation between "before" and "after"
   that holds of an evaluator holds of everything built on it *)
Section AClosed.
Variable R : lv -> lv -> Prop.
Hypothesis R_refl : forall l, R l l.
Hypothesis R_trans : forall a b c, R a b -> R b c -> R a c.

Definition aclosed (ev : lv -> ares * lv) : Prop := forall l, R l (snd (ev l)).

Section Wrappers.
Variable ev : lv -> ares * lv.
Hypothesis H : aclosed ev.

Lemma aparse_option_rel len l : R l (snd (aparse_option ev len l)).
Proof.
  unfold aparse_option. pose proof (H l) as H1. destruct (ev l) as [r l1]. cbn [snd] in H1.
  destruct r as [v|m c|]; cbn; auto.
  - destruct (lt_len (length l1) len); cbn; auto.
  - destruct ((m && Nat.eqb (length l) (length l1)) || (negb m && c)); cbn; auto.
Qed.

Lemma amany_loop_rel fuel : forall len l acc, R l (snd (amany_loop ev fuel len l acc)).
Proof.
  induction fuel as [|f IH]; intros len l acc; cbn [amany_loop]; [apply R_refl|].
  pose proof (aparse_option_rel len l) as H1. destruct (aparse_option ev len l) as [[o len'] l1]. cbn [snd] in H1.
  destruct o; cbn [snd]; auto. eapply R_trans; [exact H1|apply IH].
Qed.

Lemma acount_loop_rel fuel : forall len l cur k last, R l (snd (acount_loop ev fuel len l cur k last)).
Proof.
  induction fuel as [|f IH]; intros len l cur k last; cbn [acount_loop]; [apply R_refl|].
  pose proof (aparse_option_rel len l) as H1. destruct (aparse_option ev len l) as [[o len'] l1]. cbn [snd] in H1.
  destruct o; cbn [snd]; auto. destruct (Nat.eqb cur (length l1)); cbn [snd]; [exact H1|]. eapply R_trans; [exact H1|apply IH].
Qed.

Lemma aoptional_rel : aclosed (aoptional ev).
Proof.
  intros l. unfold aoptional. pose proof (aparse_option_rel None l) as H1.
  destruct (aparse_option ev None l) as [[o len'] l1]. destruct o; exact H1.
Qed.
Lemma amany_rel fuel : aclosed (amany fuel ev).
Proof.
  intros l. unfold amany. pose proof (amany_loop_rel fuel None l []) as H1.
  destruct (amany_loop ev fuel None l []) as [[r acc] l1]. destruct r; exact H1.
Qed.
Lemma asome_rel fuel : aclosed (asome fuel ev).
Proof.
  intros l. unfold asome. pose proof (amany_loop_rel fuel None l []) as H1.
  destruct (amany_loop ev fuel None l []) as [[r acc] l1]. destruct r; try exact H1. destruct acc; exact H1.
Qed.
Lemma acount_rel fuel : aclosed (acount fuel ev).
Proof.
  intros l. unfold acount. pose proof (acount_loop_rel fuel None l (length l) 0 None) as H1.
  destruct (acount_loop ev fuel None l (length l) 0 None) as [[[r k] la] l1]. destruct r; exact H1.
Qed.
Lemma alast_rel fuel : aclosed (alast fuel ev).
Proof.
  intros l. unfold alast. pose proof (acount_loop_rel fuel None l (length l) 0 None) as H1.
  destruct (acount_loop ev fuel None l (length l) 0 None) as [[[r k] la] l1]. cbn [snd] in H1.
  destruct r; try exact H1. destruct la; [exact H1|]. eapply R_trans; [exact H1|apply H].
Qed.
Lemma afallback_rel v : aclosed (afallback ev v).
Proof.
  intros l. unfold afallback. pose proof (H l) as H1. destruct (ev l) as [r l1]. cbn [snd] in H1.
  destruct r as [y|m c|]; cbn; auto. destruct c; cbn; auto.
Qed.
End Wrappers.

Lemma acon_go_rel evs : Forall aclosed evs -> forall l acc err, R l (snd (acon_go evs l acc err)).
Proof.
  induction 1 as [|ev t H Ht IH]; intros l acc err; cbn [acon_go].
  - destruct err as [[m c]|]; apply R_refl.
  - pose proof (H l) as H1. destruct (ev l) as [r l1]. cbn [snd] in H1.
    destruct r; cbn; auto; eapply R_trans; [exact H1|apply IH|exact H1|apply IH].
Qed.

Lemma item_closed fuel it :
  (is_argument it = false -> forall pr ab, aclosed (aeval_flag (item_named it) pr ab)) ->
  (is_argument it = true -> forall ty, aclosed (aeval_arg (item_named it) ty)) ->
  aclosed (aeval fuel (compile_item it)).
Proof.
  intros Hfl Har. destruct it as [n|n p a|n p|n|n p|n mv ty ar]; cbn [compile_item item_named is_argument] in *.
  - apply Hfl; reflexivity.
  - apply Hfl; reflexivity.
  - apply Hfl; reflexivity.
  - cbn [aeval]. apply acount_rel. apply Hfl; reflexivity.
  - cbn [aeval]. apply amany_rel. apply Hfl; reflexivity.
  - specialize (Har eq_refl ty). destruct ar; cbn [aeval].
    + exact Har.
    + apply aoptional_rel, Har.
    + apply amany_rel, Har.
    + apply asome_rel, Har.
    + apply afallback_rel, Har.
    + apply alast_rel, Har.
Qed.

Lemma pos_closed fuel p : (forall ty, aclosed (aeval_pos ty)) -> aclosed (aeval fuel (compile_pos p)).
Proof.
  intros Hp. unfold compile_pos. destruct (cp_par p); cbn [aeval].
  - apply Hp.
  - apply aoptional_rel, Hp.
  - apply amany_rel, Hp.
  - apply asome_rel, Hp.
Qed.
End AClosed.

(* the flat fragment never touches the command path (the "depth" the alternative combinator compares);
   only entering a subcommand extends it *)
Definition keepsp (ev : evaluator) : Prop := forall s, path (snd (ev s)) = path s.

Definition path_kept (s s' : state) : Prop := path s' = path s.

Lemma sremove_path k ix s : path (sremove k ix s) = path s.
Proof. unfold sremove. destruct (in_scope s ix && _); reflexivity. Qed.

Lemma keepsp_respects ev : keepsp ev <-> respects path_kept ev.
Proof. reflexivity. Qed.

Lemma path_rel : rel_ok path_kept.
Proof. split; unfold path_kept; [reflexivity|congruence|reflexivity|auto]. Qed.

Lemma flatp_every :
  (forall p, flatp p = true -> every (fun p => flatp p = true) (fun _ => False) p) /\
  (forall ps, lflatp ps = true -> every_l (fun p => flatp p = true) (fun _ => False) ps) /\
  (forall o : oparser, True).
Proof.
  apply parser_plist_oparser_ind; cbn [flatp lflatp every every_l]; auto; try discriminate.
  (* left: the nodes whose test is more than the test of the argument *)
  - intros fields IH H. split; [exact H|]. apply IH. destruct fields as [|q1 [|q2 t]]; try discriminate. exact H.
  - intros p IH c H. split; [exact H|]. apply IH. apply andb_prop in H. apply H.
  - intros p IH c H. split; [exact H|]. apply IH. apply andb_prop in H. apply H.
  - intros p IH _ c H. split; [exact H|]. apply IH. apply andb_prop in H. apply H.
  - intros p IHp ps IHps H. apply andb_prop in H. destruct H. auto.
Qed.

Theorem flat_path_all env :
  (forall p, flatp p = true -> keepsp (eval env p)) /\
  (forall ps, lflatp ps = true -> Forall keepsp (evals env ps)) /\
  (forall o : oparser, True).
Proof.
  destruct flatp_every as (Ep & El & _).
  destruct (eval_respects path_kept path_rel env (fun p => flatp p = true) (fun _ => False)) as (Hp & Hl & _);
    try discriminate; try contradiction.
  - intros n p a _. apply (flag_rel _ path_rel sremove_path).
  - intros n mv ty adj _. apply (arg_rel _ path_rel sremove_path).
  - intros mv ty pos help _. apply (pos_rel _ path_rel sremove_path).
  - split; [intros p H; apply keepsp_respects, Hp, Ep, H|split; [intros ps H; apply Hl, El, H|trivial]].
Qed.

Definition flat_path env := proj1 (flat_path_all env).
