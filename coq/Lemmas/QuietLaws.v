(* QuietLaws.v -- when no help flag is left on the line, a run never ends on stdout: for every
   definition whose option levels all carry the default Info (no version, no fallback_to_usage,
   `-h/--help`), a state none of whose unconsumed tokens is the help flag leads to a value or to a
   failure on stderr -- in particular every inner failure handed outward by a subcommand is one.
   States only move by the legal steps of Reach.v, which never bring a token back; and an error is a
   primitive's, a wrapper's or a level's (Closure.v), so only the levels have to be looked at. *)
From BpafLemmas Require Import Tac Find Reach Ledger.
Import ListNotations.

(* no unconsumed token, in scope or not, is the help flag *)
Definition NH (s : state) : Prop :=
  forall ix a st, nth_error (items s) ix = Some a -> nth_error (ist s) ix = Some st -> present st = true ->
    matches_arg default_help_arg false a = false.

(* legal steps never bring a token back *)
Lemma reach_NH K s s' : reach K s s' -> NH s -> NH s'.
Proof.
  intros R H ix a st Ha Hs Hp. destruct (reach_ext K s s' R) as [l X]. rewrite (ext_items _ _ _ _ X) in Ha.
  assert (L : live s ix) by (apply (ext_mono _ _ _ _ X); unfold live, present_at, ist_at; rewrite Hs; cbn; rewrite Hp; reflexivity).
  unfold live, present_at, ist_at in L. destruct (nth_error (ist s) ix) as [st0|] eqn:E0; [|discriminate].
  apply (H ix a st0 Ha E0). cbn in L. congruence.
Qed.

Lemma NH_inv_ok : inv_ok NH.
Proof.
  split; intros; eapply (reach_NH (fun _ => True)); eauto using reach_current, reach_path, reach_scope, save_conflicts_reach.
Qed.

(* results that are not a document or completion output *)
Definition okE (r : eres) : Prop :=
  match r with RErr (MsgParseFailure (FStdout _)) | RErr (MsgParseFailure (FCompletion _)) => False | _ => True end.
Definition okS (r : sres) : Prop :=
  match r with SFail (FStdout _) | SFail (FCompletion _) => False | _ => True end.
Definition okM (m : message) : Prop := okE (RErr m).

Definition quiet (ev : evaluator) : Prop := forall s, NH s -> okE (fst (ev s)).
Definition quietr (run : state -> sres * state) : Prop := forall s, NH s -> okS (fst (run s)).

Lemma okM_msgs_ok P : msgs_ok P okM.
Proof.
  split.
  - intros m. destruct m; cbn; tauto.
  - intros a b. apply combine_ok. intros; exact I.
  - intros it s _. exact I.
Qed.

Lemma okE_err_ok r : okE r <-> err_ok okM r.
Proof. destruct r; cbn; tauto. Qed.
Lemma okS_level_ok r : okS r <-> level_ok okM r.
Proof. destruct r as [v|[h|c|m d]|w|]; cbn; tauto. Qed.

Lemma errs_quiet ev : errs NH okM ev -> quiet ev.
Proof. intros [_ H] s Hs. apply okE_err_ok, H, Hs. Qed.
Lemma errs_quietr run : errs_run NH okM run -> quietr run.
Proof. intros [_ H] s Hs. apply okS_level_ok, H, Hs. Qed.

(* every Options node carries an Info like the default one: `-h/--help` as help flag, no version,
   no fallback_to_usage *)
Fixpoint dinfo (p : parser) {struct p} : Prop :=
  match p with
  | PCmd _ _ _ _ _ sub => dinfo_o sub
  | PCon fs | PAdj fs => dinfo_l fs
  | POr a b => dinfo a /\ dinfo b
  | POptional q _ | PMany q _ | PCollect q _ | PCount q | PLast q | PHide q | PBoxed q => dinfo q
  | PSome q _ _ | PFallback q _ _ | PFallbackWith q _ _ | PGuard q _ _ | PUsage q _ | PGroupHelp q _ => dinfo q
  | PParse q _ | PMap q _ => dinfo q
  | _ => True
  end
with dinfo_l (ps : plist) {struct ps} : Prop :=
  match ps with PNil => True | PCons q t => dinfo q /\ dinfo_l t end
with dinfo_o (o : oparser) {struct o} : Prop :=
  match o with Options q inf =>
    dinfo q /\ i_help_if_no_args inf = false /\ i_version inf = None /\ i_help_arg inf = default_help_arg
  end.

(* no `adjacent`: neither groups nor commands *)
Fixpoint noadj (p : parser) {struct p} : bool :=
  match p with
  | PCmd _ _ _ _ adjacent sub => negb adjacent && noadj_o sub
  | PCon fs => noadj_l fs
  | PAdj _ => false
  | POr a b => noadj a && noadj b
  | POptional q _ | PMany q _ | PCollect q _ | PCount q | PLast q | PHide q | PBoxed q => noadj q
  | PSome q _ _ | PFallback q _ _ | PFallbackWith q _ _ | PGuard q _ _ | PUsage q _ | PGroupHelp q _ => noadj q
  | PParse q _ | PMap q _ => noadj q
  | _ => true
  end
with noadj_l (ps : plist) {struct ps} : bool :=
  match ps with PNil => true | PCons q t => noadj q && noadj_l t end
with noadj_o (o : oparser) {struct o} : bool :=
  match o with Options q _ => noadj q end.

Section WithEnv.
Variable env : bytes -> option bytes.

Lemma reach_keepsNH ev : ev_reach (fun _ => True) ev -> respects (keepsI NH) ev.
Proof. intros R s. exact (reach_NH _ _ _ (R s)). Qed.

Lemma take_flag_NH s : NH s -> take_flag default_help_arg s = None.
Proof.
  intros H. unfold take_flag. destruct (find_item s (fun _ a => matches_arg default_help_arg false a)) as [ix|] eqn:F; [|reflexivity].
  apply find_item_some in F. destruct F as (_ & a & st & Ha & Hs & Hp & M). unfold ist_at in Hs.
  rewrite (H ix a st Ha Hs Hp) in M. discriminate.
Qed.

Lemma info_eval_NH inf s : i_version inf = None -> i_help_arg inf = default_help_arg -> NH s ->
  fst (info_eval env inf s) = None.
Proof.
  intros Hv Hh H. unfold info_eval. rewrite Hh, Hv. unfold eval_flag. rewrite (take_flag_NH s H). cbn. reflexivity.
Qed.

Definition default_level (o : oparser) : Prop :=
  i_help_if_no_args (oinfo_of o) = false /\ i_version (oinfo_of o) = None /\ i_help_arg (oinfo_of o) = default_help_arg.

Lemma run_sub_body_quiet inf m s r s1 :
  i_help_if_no_args inf = false -> i_version inf = None -> i_help_arg inf = default_help_arg ->
  okE r -> NH s1 -> okS (fst (run_sub_body env inf m s (r, s1))).
Proof.
  intros Hn Hv Hh Q H. rewrite run_sub_body_eq.
  assert (F : forall err, okS (fst (run_finish env inf m s1 err))).
  { intros err. unfold run_finish. pose proof (info_eval_NH inf s1 Hv Hh H) as Ei.
    destruct (info_eval env inf s1) as [ex s2]. cbn [fst] in Ei. subst ex. exact I. }
  destruct r as [v|e|w|]; try exact I.
  - destruct (first_item_ix s1); [apply F|exact I].
  - rewrite Hn, andb_false_r. destruct e; try apply F. destruct f; try exact I; contradiction.
Qed.

Lemma run_sub_quiet q inf : default_level (Options q inf) -> errs NH okM (eval env q) -> errs_run NH okM (run_sub env (Options q inf)).
Proof.
  intros (Hn & Hv & Hh) Hq. split.
  - intros s. exact (reach_NH _ _ _ (run_sub_reach_any env _ s)).
  - intros s Hs. rewrite run_sub_eq. destruct (eval env q s) as [r s1] eqn:Ev.
    destruct (errs_at NH okM _ _ _ _ Hq Hs Ev) as [Q K].
    apply okS_level_ok, (run_sub_body_quiet inf (meta_of q) s r s1 Hn Hv Hh); [apply okE_err_ok, Q|exact K].
Qed.

Lemma dinfo_every :
  (forall p, dinfo p -> every (fun _ => True) default_level p) /\
  (forall ps, dinfo_l ps -> every_l (fun _ => True) default_level ps) /\
  (forall o, dinfo_o o -> every_o (fun _ => True) default_level o).
Proof.
  apply parser_plist_oparser_ind; cbn [dinfo dinfo_l dinfo_o every every_l every_o]; unfold default_level; cbn [oinfo_of];
    intros; tauto.
Qed.

Theorem quiet_every :
  (forall p, dinfo p -> quiet (eval env p)) /\
  (forall ps, dinfo_l ps -> Forall quiet (evals env ps)) /\
  (forall o, dinfo_o o -> quietr (run_sub env o)).
Proof.
  destruct (eval_errs_plain NH okM env (fun _ => True) default_level NH_inv_ok (okM_msgs_ok NH)) as (Hp & Hl & Ho).
  - intros m Hm. destruct m; try exact I. destruct (Hm f eq_refl).
  - intros n p a _. apply reach_keepsNH, eval_flag_reach. exact I.
  - intros n mv ty adj _. apply reach_keepsNH, eval_arg_reach; exact I.
  - intros mv ty pos help _. apply reach_keepsNH, eval_pos_reach. exact I.
  - intros mv help check anywhere _. apply reach_keepsNH, eval_any_reach. exact I.
  - intros name aliases shorts help adjacent sub _ s. apply (reach_NH (fun _ => True)). apply take_cmd_any_reach. intros; exact I.
  - exact run_sub_quiet.
  - destruct dinfo_every as (Dp & Dl & Do). split; [|split]; intros.
    + apply errs_quiet, Hp, Dp. assumption.
    + eapply Forall_impl; [exact errs_quiet|]. apply Hl, Dl. assumption.
    + apply errs_quietr, Ho, Do. assumption.
Qed.

(* in particular for definitions without `adjacent` *)
Theorem quiet_all :
  (forall p, noadj p = true -> dinfo p -> quiet (eval env p)) /\
  (forall ps, noadj_l ps = true -> dinfo_l ps -> Forall quiet (evals env ps)) /\
  (forall o, noadj_o o = true -> dinfo_o o -> quietr (run_sub env o)).
Proof.
  repeat split; intros; [apply (proj1 quiet_every)|apply (proj1 (proj2 quiet_every))|apply (proj2 (proj2 quiet_every))]; assumption.
Qed.
End WithEnv.

(* no token of the line is the help flag (the `--` separator itself is consumed by the tokenizer) *)
Definition no_help_token (t : tokenized) : Prop :=
  forall ix a, nth_error (t_items t) ix = Some a -> t_marker t <> Some ix -> matches_arg default_help_arg false a = false.

Lemma construct_NH sf sa name argv :
  no_help_token (tokenize sf sa argv) -> NH (fst (construct sf sa name argv)).
Proof.
  intros H. unfold construct. set (t := tokenize sf sa argv) in *.
  destruct (t_marker t) as [mk|] eqn:Em; cbn [fst]; intros ix a st Ha Hs Hp; cbn [items ist] in *.
  - apply (H ix a Ha). intros E. rewrite Em in E. inversion E; subst mk.
    assert (Hlt : ix < length (repeat Unparsed (length (t_items t)))).
    { rewrite repeat_length. apply nth_error_Some. congruence. }
    rewrite (Ledger.update_nth_same ix Parsed _ Hlt) in Hs. inversion Hs; subst st. discriminate.
  - apply (H ix a Ha). rewrite Em. discriminate.
Qed.

(* no help flag on the line: a run of such a definition ends in a value or on stderr -- adjacent groups and adjacent
   commands included *)
Theorem run_quiet_every feat env o name argv :
  dinfo_o o ->
  no_help_token (tokenize (fst (short_tables o)) (snd (short_tables o)) argv) ->
  match run_inner feat env o name argv with OutStdout _ | OutCompletion _ => False | _ => True end.
Proof.
  intros Hd Hn. unfold run_inner, run_inner_state, initial_state.
  destruct (short_tables o) as [sf sa]. cbn [fst snd] in Hn.
  pose proof (construct_NH sf sa name argv Hn) as H.
  destruct (construct sf sa name argv) as [st amb]. cbn [fst] in H.
  destruct amb as [[ix sh]|]; [exact I|].
  pose proof (proj2 (proj2 (quiet_every env)) o Hd st H) as Q.
  destruct (run_sub env o st) as [r s']. cbn [fst] in *. destruct r as [v|[h|c|m d]|w|]; try contradiction; exact I.
Qed.
Print Assumptions run_quiet_every.
