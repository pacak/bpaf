(* C10 -- Asking for help or version always wins and never runs the program.
   Property theorems only; proofs live in Lemmas/. *)
From BpafModel Require Import Wf.
From BpafLemmas Require Import Tac Reach Ledger NoLoss C05Lemmas OkReach TotalLaws AdjLaws HelpWins.

(* Never a value: for EVERY parser, if the line holds a live item that none of the parser's own
   consumers accepts -- such as `--help`/`-h`/`--version`, or the configured replacements, whenever
   no item of the parser uses those names -- run_subparser / run_inner cannot yield a value.
   (The help/version lookups of Info are not consumers of the parser: a successful evaluation never
   keeps what they consumed.) *)
Theorem C10_never_value :
  forall env o s i a,
    opkinds_ok (fun k => accepts k a = false) o -> lenwf s -> full_scope s ->
    nth_error (items s) i = Some a -> live s i ->
    forall v s', run_sub env o s <> (SOk v, s').
Proof. exact unclaimable_item. Qed.
Print Assumptions C10_never_value.

Theorem C10_never_value_run_inner :
  forall feat env o name argv i a st amb,
    opkinds_ok (fun k => accepts k a = false) o ->
    initial_state o name argv = (st, amb) ->
    nth_error (items st) i = Some a -> live st i ->
    forall v, run_inner feat env o name argv <> OutOk v.
Proof. exact unclaimable_item_run_inner. Qed.
Print Assumptions C10_never_value_run_inner.

(* what a help token looks like to the consumers: only a flag/argument carrying that very name
   accepts it; positionals, commands (unless literally so named) and values do not *)
Theorem C10_help_token_acceptors :
  forall k l os, accepts k (Long l false os) = true ->
    (exists n, (k = KFlag n \/ k = KArgKey n) /\ mem_bytes l (n_long n) = true) \/
    (exists w, k = KCmd w /\ beqb os w = true) \/ k = KAny.
Proof. exact long_token_acceptors. Qed.
Print Assumptions C10_help_token_acceptors.

(* When the inner parser fails (or leaves items) and the help flag is live in the scope it left
   behind, the outcome is help for THIS level: its info, its meta, its path. *)
Theorem C10_help_found :
  forall env inf m s r s1 s2,
    (forall f, r <> RErr (MsgParseFailure f)) -> (forall w, r <> RPanic w) -> r <> RFuel ->
    (forall v, r = ROk v -> first_item_ix s1 <> None) ->
    (i_help_if_no_args inf && Nat.eqb (remaining s) 0 = false) ->
    take_flag (i_help_arg inf) s1 = Some s2 -> invariant_ok m = true ->
    exists detailed s3,
      run_sub_body env inf m s (r, s1) = (SFail (FStdout (HHelp (path s3) inf m detailed)), s3).
Proof. exact help_found. Qed.
Print Assumptions C10_help_found.

(* FULL STATEMENT for definitions without subcommands (`memb`: every other combinator, adjacent groups -- also nested
   ones -- included, because a failed group hands the caller's scope back (/repo with fix 3a2639c);
   arbitrarily nested): if the help flag stands on the line as an item of its own -- and no item of the parser
   uses its names -- the outcome is the help of this level, WHATEVER else is missing, duplicated or malformed:
   only subcommands produce a ready-made failure, the parser neither panics nor loops (C04_total), nobody can
   consume the help item and the scope is kept, so Info::eval finds it; a successful parse has a leftover and
   `remaining` (exact) is not zero *)
Theorem C10_help_wins_without_subcommands :
  forall feat env p inf name argv st i a,
    memb p = true -> oko (Options p inf) = true ->
    kinds_ok (fun k => accepts k a = false) p ->
    initial_state (Options p inf) name argv = (st, None) ->
    nth_error (items st) i = Some a -> live st i ->
    matches_arg (i_help_arg inf) false a = true ->
    exists pth detailed,
      run_inner feat env (Options p inf) name argv = OutStdout (HHelp pth inf (meta_of p) detailed).
Proof. exact help_wins_run_inner. Qed.
Print Assumptions C10_help_wins_without_subcommands.

(* the same for one command level evaluated from any well-formed state (a subcommand's own parser) *)
Theorem C10_help_wins_level :
  forall env p inf s i a,
    memb p = true -> okp p = true -> invariant_ok (meta_of p) = true ->
    kinds_ok (fun k => accepts k a = false) p ->
    G s -> nth_error (items s) i = Some a -> live s i -> in_scope s i = true ->
    matches_arg (i_help_arg inf) false a = true ->
    exists detailed s3,
      run_sub env (Options p inf) s = (SFail (FStdout (HHelp (path s3) inf (meta_of p) detailed)), s3).
Proof. exact help_wins. Qed.
Print Assumptions C10_help_wins_level.

(* the version flag behaves the same way when a version was configured (and the help flag is not on the line) *)
Theorem C10_version_wins_level :
  forall env p inf s i a v,
    memb p = true -> okp p = true ->
    kinds_ok (fun k => accepts k a = false) p ->
    G s -> nth_error (items s) i = Some a -> live s i -> in_scope s i = true ->
    i_version inf = Some v -> matches_arg (i_version_arg inf) false a = true ->
    n_env (i_help_arg inf) = [] ->
    (forall j b, nth_error (items s) j = Some b -> live s j -> matches_arg (i_help_arg inf) false b = false) ->
    exists s3, run_sub env (Options p inf) s = (SFail (FStdout (HVersion v)), s3).
Proof. exact version_wins. Qed.
Print Assumptions C10_version_wins_level.

(* non-vacuity: a required argument is missing, a value is malformed, an unknown flag and a duplicate are on
   the line -- and `--help` *)
Example C10_example_help_wins :
  let p := PCon (PCons (PArg (mkNamed [] [[110]%N] [] None) [78%N] TyU32 false)
                (PCons (PFlag (mkNamed [118%N] [] [] None) (VBool true) (Some (VBool false)))
                (PCons (PArg (mkNamed [] [[114;101;113]%N] [] None) [82%N] TyString false) PNil))) in
  memb p = true /\ oko (Options p default_info) = true /\
  exists pth d,
    run_inner (mkFeat true true false) (fun _ => None) (Options p default_info) None
              [[45;45;110;61;120]%N; [45;118]%N; [45;118]%N; [45;45;98;111;103;117;115]%N; [45;45;104;101;108;112]%N]
    = OutStdout (HHelp pth default_info (meta_of p) d).
Proof. cbv zeta. split; [reflexivity|]. split; [vm_compute; reflexivity|]. eexists. eexists. vm_compute. reflexivity. Qed.

(* An incomplete adjacent group does not hide the request: a failed group hands back the caller's scope, not the window
   of its best attempt (which starts at the group's first item and would hide a help flag to its LEFT); /repo with fix
   3a2639c ... *)
Theorem C10_failed_group_gives_scope_back :
  forall ev fi s e s', eval_adjacent ev fi s = (RErr e, s') -> sc_start s' = sc_start s /\ sc_end s' = sc_end s.
Proof. exact adjacent_err_scope. Qed.
Print Assumptions C10_failed_group_gives_scope_back.

(* ... so that `--help --rect 1` (the group `--rect X Y` is incomplete) shows the help *)
Example C10_example_help_left_of_failed_group :
  let g := PAdj (PCons (PFlag (mkNamed [] [[114;101;99;116]%N] [] None) VUnit None)
                (PCons (PPos [88%N] TyU32 Unrestricted None) (PCons (PPos [89%N] TyU32 Unrestricted None) PNil))) in
  let p := PCon (PCons g (PCons (PFlag (mkNamed [118%N] [] [] None) (VBool true) (Some (VBool false))) PNil)) in
  exists pth d,
    run_inner (mkFeat true true false) (fun _ => None) (Options p default_info) None
              [[45;45;104;101;108;112]%N; [45;45;114;101;99;116]%N; [49]%N]
    = OutStdout (HHelp pth default_info (meta_of p) d).
Proof. cbv zeta. eexists. eexists. vm_compute. reflexivity. Qed.

(* The unrestricted statement ("regardless of what else is missing") is FALSE of the faithful
   model and of the code with subcommands: a sibling field of an enclosing level that fails first hides the request
   made inside a subcommand; the witness, replayed on the implementation = known finding C10-parent-field-fails-first.
   (An incomplete adjacent group is no such class: C10_failed_group_gives_scope_back.) *)
Theorem C10_refuted_seq :
  exists o argv m,
    run_inner (mkFeat true true false) (fun _ => None) o None argv = OutStderr m.
Proof. destruct refuted_seq as [ms H]. eauto. Qed.
Print Assumptions C10_refuted_seq.
