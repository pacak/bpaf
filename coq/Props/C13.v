(* C13 -- Console rendering never loses text and respects the width.
   Property theorems only; proofs live in Lemmas/.  The model (Model/Console.v) is a transcription of
   src/buffer/splitter.rs and src/buffer/console.rs, tied to the code by rendering the same token
   lists at the same widths on every run. *)
From Coq Require Import List NArith.
From BpafModel Require Import Console.
From BpafLemmas Require Import ConsoleLaws WidthLaws.
Import ListNotations.

(* Content preservation: for EVERY document (any token list, any text), both forms, and ANY two
   widths (in particular any width and "unwrapped"), the two renderings are identical once
   whitespace is removed: wrapping never drops, duplicates or reorders a character. *)
Theorem C13_content :
  forall docgen full w1 w2 d o1 o2,
    render_console docgen full w1 d = Some o1 ->
    render_console docgen full w2 d = Some o2 ->
    strip o1 = strip o2.
Proof. exact render_content. Qed.
Print Assumptions C13_content.

(* the step the proof rests on: one word contributes exactly its own non-blank characters, whatever
   the width, the column and the pending flags *)
Theorem C13_word_step :
  forall mw s w st,
    strip (rres (raw_step mw s w st)) = rev (strip s) ++ strip (rres st) /\
    skip (raw_step mw s w st) = skip st.
Proof. exact raw_step_content. Qed.
Print Assumptions C13_word_step.

(* The short form shows exactly the first paragraph of a text: chunks up to the first paragraph
   break, then skipping is switched on ... *)
Theorem C13_short_is_first_paragraph :
  forall mw cs st,
    chunks_step false mw cs st =
    let st' := chunks_step true mw (until_para cs) st in
    if has_para cs
    then mkCR (nl :: rres st') 0%N 1 (margins st') (pend_nl st') (pend_blank st') (pend_margin st') (cpanic st')
    else st'.
Proof. exact short_is_first_paragraph. Qed.
Print Assumptions C13_short_is_first_paragraph.

(* ... and while skipping, text contributes nothing *)
Theorem C13_skipping_ignores_text :
  forall docgen full mw ts st sty s,
    skip st <> 0 -> token_step docgen full mw ts st (CText sty s) = st.
Proof. exact skipping_ignores_text. Qed.
Print Assumptions C13_skipping_ignores_text.

(* A help text as a whole: it is embedded as an inline block of text tokens (Doc::doc).  In the short
   form the block shows the texts before the first paragraph break and the first paragraph of the text
   holding the break (short_texts); everything after it is skipped ... *)
Theorem C13_short_help_text :
  forall docgen mw ts d st,
    skip st = 0 ->
    fold_left (token_step docgen false mw ts) (texts d) st = short_texts docgen mw d st.
Proof. exact short_block. Qed.
Print Assumptions C13_short_help_text.

(* ... and the end of the block switches skipping off again: the next help text starts afresh *)
Theorem C13_short_help_text_closes :
  forall docgen mw ts d st,
    skip st = 0 ->
    skip (fold_left (token_step docgen false mw ts) (CStart BInlineBlock :: texts d ++ [CEnd BInlineBlock]) st) = 0.
Proof. exact short_block_closes. Qed.
Print Assumptions C13_short_help_text_closes.

(* REFUTED for help texts that embed a further document holding the paragraph break: the inner block's
   end forgets the break (the counter counts only blocks opened while skipping), and the text after the
   inner block -- part of the second paragraph, see the full form -- is shown in the short form.
   Witness replayed on the implementation: KNOWN_FINDINGS C13-para-break-inside-embedded-doc. *)
Theorem C13_short_nested_refuted :
  exists d : cdoc,
    let a := 97%N in let b := 98%N in let c := 99%N in
    render_console false true 100%N d = Some [a; 10; b; c]%N /\
    render_console false false 100%N d = Some [a; 10; c]%N.
Proof. eexists. exact short_nested_witness. Qed.
Print Assumptions C13_short_nested_refuted.

(* The renderer returns for EVERY document, form and width (/repo with fix efdd257: a margin above the 50 columns
   of the padding constant, reached by blocks nested about eighteen deep, is padded in pieces instead of slicing
   `PADDING[..missing]`) *)
Theorem C13_render_returns :
  forall docgen full mw d, render_console docgen full mw d <> None.
Proof. exact render_console_returns. Qed.
Print Assumptions C13_render_returns.

(* The width clause.  FULL STATEMENT (kept visible; decided on the implementation's text by the oracle
   and the differential run): for 40 <= w every output line has at most w + 2 characters unless it is
   a code line or what follows its indentation / term is a single unbreakable word.
   PROVED, for every width (not only >= 40), about every state the renderer passes through:
   (1) the column counter the wrapping decision uses is never below the length of the line being
       written (C13_column_dominates_line) -- so the decision is never taken on a stale column;
   (2) placing a word or a separating space leaves a line of at most w + 2 characters, unless the
       word starts at the margin (indentation, or the definition term padded to the tab stop, plus
       the two-column gutter) -- i.e. it is the single word that follows the indentation / term --
       or the line holds a preformatted code line (C13_width_word_partial);
   (3) the states of (2) include the state in which the rendering of any document ends
       (C13_render_states_reachable).
   NOT derived: the statement about the lines of the final text (a closed line is the current line
   of the state in which the line break was pushed; back-quotes of term references are appended
   without a width test, one character each). *)
Theorem C13_column_dominates_line :
  forall docgen full mw ts d k,
    texts_ok d ->
    let st := fold_left (token_step docgen full mw ts) (firstn k d) init_cr in
    (cur_len (rres st) <= char_pos st)%N.
Proof. exact column_dominates_line. Qed.
Print Assumptions C13_column_dominates_line.

Theorem C13_width_word_partial :
  forall mw st s,
    Reach mw st ->
    let st' := raw_step mw s (clen s) st in
    (cur_len (rres st') <= mw + 2 \/
     cur_len (rres st') <= cur_margin (margins st) + 2 + clen s \/
     W_CODE <= char_pos st')%N.
Proof. exact word_width. Qed.
Print Assumptions C13_width_word_partial.

Theorem C13_render_states_reachable :
  forall docgen full mw d, texts_ok d -> Reach mw (render_state docgen full mw d).
Proof. exact render_reach. Qed.
Print Assumptions C13_render_states_reachable.

(* every text the splitter is given yields chunks whose width is at least their length *)
Theorem C13_splitter_chunks :
  forall docgen s, (clen s <= W_CODE)%N -> Forall chunk_ok (split docgen s).
Proof. exact split_ok. Qed.
Print Assumptions C13_splitter_chunks.

Example C13_example :
  let d := [CStart BBlock; CText SText [104;101;108;108;111;32;119;111;114;108;100]%N; CEnd BBlock] in
  render_console true true 5%N d = Some [104;101;108;108;111;10;119;111;114;108;100;10]%N /\
  render_console true true 100%N d = Some [104;101;108;108;111;32;119;111;114;108;100;10]%N.
Proof. split; vm_compute; reflexivity. Qed.

(* the premises are met by ordinary documents, and the three cases of the width theorem occur:
   a word that fits, a word that wraps, a first word longer than the width *)
Example C13_example_width :
  let d := [CStart BBlock; CText SText [104;101;108;108;111;32;119;111;114;108;100]%N; CEnd BBlock] in
  texts_ok d /\
  render_console true true 8%N d = Some [104;101;108;108;111;10;119;111;114;108;100;10]%N /\
  render_console true true 3%N d = Some [104;101;108;108;111;10;119;111;114;108;100;10]%N.
Proof.
  split; [|split; vm_compute; reflexivity].
  intros sty s [H|[H|[H|[]]]]; inversion H; subst. vm_compute. discriminate.
Qed.
