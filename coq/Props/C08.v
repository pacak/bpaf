(* C08 -- Subcommands scope what follows them.
   Property theorems only; proofs live in Lemmas/. *)
From Coq Require Import List.
From BpafModel Require Import Conv Wf.
From BpafLemmas Require Import Tac Find Reach Ledger NoLoss C05Lemmas OkReach CmdLaws CatchLaws ConvRefine ConvChain ConvTree ConvTreeSound TotalLaws HelpWins.
Import ListNotations.

(* A subcommand is entered only when its name is the FIRST live item of the enclosing scope. *)
Theorem C08_enter_first_live :
  forall word s s1, lenwf s -> take_cmd word s = (true, s1) ->
    exists ix a, first_item_ix s = Some ix /\ nth_error (items s) ix = Some a /\ cmd_token a word = true /\
                 (forall i, in_scope s i = true -> live s i -> ix <= i) /\
                 s1 = set_current (sremove (KCmd word) ix s) (Some ix).
Proof. exact take_cmd_needs_first. Qed.
Print Assumptions C08_enter_first_live.

Theorem C08_take_cmd :
  forall word s,
    take_cmd word s =
    match first_item_ix s with
    | Some ix =>
      match nth_error (items s) ix with
      | Some a => if cmd_token a word
                  then (true, set_current (sremove (KCmd word) ix s) (Some ix))
                  else (false, set_current s None)
      | None => (false, set_current s None)
      end
    | None => (false, set_current s None)
    end.
Proof. exact take_cmd_spec. Qed.
Print Assumptions C08_take_cmd.

Theorem C08_name_shapes :
  forall a word, cmd_token a word = true ->
    match a with Word _ | Short _ _ _ | Long _ false _ => True | _ => False end.
Proof. exact cmd_token_shapes. Qed.
Print Assumptions C08_name_shapes.

(* From then on the items to its right are judged by the subcommand's own OptionParser, run on the
   window [name .. old end) with the path extended; its value is placed in the enclosing result. *)
Theorem C08_enter :
  forall name aliases shorts help m_sub i_sub run s s1 cur s2,
    take_cmd_any ((name :: aliases) ++ map utf8_encode_char shorts) s = (true, s1) ->
    current s1 = Some cur -> set_scope s1 cur (sc_end s1) = Some s2 ->
    cmd_body name aliases shorts help false m_sub i_sub run s =
    match run (set_path s2 (path s2 ++ [name])) with
    | (SOk v, s4) => (ROk v, s4)
    | (SFail f, s4) => (RErr (MsgParseFailure f), s4)
    | (SPanic w, s4) => (RPanic w, s4)
    | (SFuel, s4) => (RFuel, s4)
    end.
Proof. exact CmdLaws.cmd_enter. Qed.
Print Assumptions C08_enter.

(* a name that is not there: the command reports itself missing (catchable: absence) *)
Theorem C08_not_entered :
  forall name aliases shorts help adjacent m_sub i_sub run s s1,
    take_cmd_any ((name :: aliases) ++ map utf8_encode_char shorts) s = (false, s1) ->
    exists m, cmd_body name aliases shorts help adjacent m_sub i_sub run s = (RErr (MsgMissing m), s1).
Proof. exact cmd_not_entered. Qed.
Print Assumptions C08_not_entered.

(* The run succeeds only if the subcommand's parser consumed everything in its window ... *)
Theorem C08_leftover_fails :
  forall env inf m s v s1 ix, first_item_ix s1 = Some ix ->
    forall v' s', run_sub_body env inf m s (ROk v, s1) <> (SOk v', s').
Proof. exact leftover_fails. Qed.
Print Assumptions C08_leftover_fails.

(* ... and, for the whole tree: an item that no consumer of any level accepts makes the run fail
   (options of a subcommand written where only the parent's consumers can see them, unknown
   words, unknown subcommands): instance of the ledger theorem. *)
Theorem C08_unclaimable_item_fails :
  forall env o s i a,
    opkinds_ok (fun k => accepts k a = false) o -> lenwf s -> full_scope s ->
    nth_error (items s) i = Some a -> live s i ->
    forall v s', run_sub env o s <> (SOk v, s').
Proof. exact unclaimable_item. Qed.
Print Assumptions C08_unclaimable_item_fails.

(* Help requested after the name describes the subcommand: the inner run_subparser renders help with
   ITS info, meta and path, and that outcome is final on the way out. *)
Theorem C08_help_after_name :
  forall env inf m s r s1 s2,
    (forall f, r <> RErr (MsgParseFailure f)) -> (forall w, r <> RPanic w) -> r <> RFuel ->
    (forall v, r = ROk v -> first_item_ix s1 <> None) ->
    (i_help_if_no_args inf && Nat.eqb (remaining s) 0 = false) ->
    take_flag (i_help_arg inf) s1 = Some s2 -> invariant_ok m = true ->
    exists detailed s3,
      run_sub_body env inf m s (r, s1) = (SFail (FStdout (HHelp (path s3) inf m detailed)), s3).
Proof. exact help_found. Qed.
Print Assumptions C08_help_after_name.

(* ... in full for a subcommand without nested subcommands (`memb`: adjacent groups are members): once the name is the first
   unclaimed item, a help flag anywhere in the subcommand's window makes the command parser return the
   SUBCOMMAND's help (its info, its meta, the extended path) as a final outcome -- whatever else in the window
   is missing, duplicated or malformed *)
Theorem C08_help_after_name_describes_subcommand :
  forall env name aliases shorts help q inf s s1 cur s2 i a,
    take_cmd_any ((name :: aliases) ++ map utf8_encode_char shorts) s = (true, s1) ->
    current s1 = Some cur -> set_scope s1 cur (sc_end s1) = Some s2 ->
    memb q = true -> okp q = true -> invariant_ok (meta_of q) = true ->
    kinds_ok (fun k => accepts k a = false) q ->
    G s2 -> nth_error (items s2) i = Some a -> live s2 i -> in_scope s2 i = true ->
    matches_arg (i_help_arg inf) false a = true ->
    exists detailed s4,
      eval env (PCmd name aliases shorts help false (Options q inf)) s =
      (RErr (MsgParseFailure (FStdout (HHelp (path s4) inf (meta_of q) detailed))), s4).
Proof. exact help_after_name. Qed.
Print Assumptions C08_help_after_name_describes_subcommand.

Theorem C08_inner_outcome_final :
  forall f, can_catch (MsgParseFailure f) = false /\
    (forall e, combine_with (MsgParseFailure f) e = MsgParseFailure f) /\
    (forall e, (forall g, e <> MsgParseFailure g) -> combine_with e (MsgParseFailure f) = MsgParseFailure f).
Proof. exact inner_failure_final. Qed.
Print Assumptions C08_inner_outcome_final.

Theorem C08_inner_stdout_propagates :
  forall env inf m s h s1,
    run_sub_body env inf m s (RErr (MsgParseFailure (FStdout h)), s1) = (SFail (FStdout h), s1).
Proof. exact inner_stdout_propagates. Qed.
Print Assumptions C08_inner_stdout_propagates.

(* between sibling alternatives the one that went deeper (entered a command) wins *)
Theorem C08_deeper_wins :
  forall ra rb s sa sb, depth sa < depth sb ->
    this_or_that ra rb s sa sb = (match rb with RErr e => inr e | _ => inl false end, sb).
Proof. exact deeper_wins. Qed.
Print Assumptions C08_deeper_wins.

Example C08_example :
  let sub := Options (PFlag (mkNamed [120%N] [] [] None) (VBool true) (Some (VBool false)))
                     (mkInfo None (Some [TText SText [76;50]%N]) None None None default_help_arg default_version_arg false 100%N) in
  let top := Options (PCon (PCons (PFlag (mkNamed [118%N] [] [] None) (VBool true) (Some (VBool false)))
                           (PCons (PCmd [99;109;100]%N [] [] None false sub) PNil))) default_info in
  run_inner (mkFeat true true false) (fun _ => None) top None [[99;109;100]%N; [45;120]%N; [45;118]%N]
  = OutOk (VTuple [VBool true; VBool true]) /\
  (exists m, run_inner (mkFeat true true false) (fun _ => None) top None [[45;120]%N; [99;109;100]%N] = OutStderr m).
Proof. split; [|eexists]; vm_compute; reflexivity. Qed.

(* On conventional subcommand trees (Model/Conv.v; any number of subcommands with aliases at every
   level): a level that offers subcommands is a sentence exactly through ONE of them -- the scan
   stops at the first free word naming it, everything to its right is judged by that subcommand's
   own grammar (the enclosing items being ancestors), and its value comes last in the enclosing
   result; the parser returns exactly that value. *)
Theorem C08_subcommand_value_tree :
  forall feat env items cs argv v,
  tree_ok (Level items (TCmds cs)) ->
  denote (Level items (TCmds cs)) argv = Accept v ->
  let st := short_tables (compile_options (Level items (TCmds cs))) in
  let ts := mark_tokens (tokenize (fst st) (snd st) argv) in
  exists a sub rest vs sv,
    scan items [] (TCmds cs) ts = ScCmd a sub rest /\
    denote_level (length ts) sub ([] ++ items) rest = Accept sv /\
    items_values items 0 (at_occ a) = Some vs /\
    v = VTuple (vs ++ [sv]) /\
    run_inner feat env (compile_options (Level items (TCmds cs))) None argv = OutOk v.
Proof. exact tree_cmd_value. Qed.
Print Assumptions C08_subcommand_value_tree.

(* ... and the run succeeds IFF the grammar (hence the subcommand's own grammar on what follows its
   name) accepts: both directions, for every specified vector *)
Theorem C08_tree_conformance :
  forall feat env l argv v,
  tree_ok l -> plain_cmds l = true -> denote l argv <> Unspecified ->
  (denote l argv = Accept v <-> run_inner feat env (compile_options l) None argv = OutOk v).
Proof. exact denote_complete_tree. Qed.
Print Assumptions C08_tree_conformance.
