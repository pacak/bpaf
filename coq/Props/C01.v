(* C01 -- Parsing conforms to the declared command-line grammar.
   Property theorems only; proofs live in Lemmas/ (ConvLaws, AbsSim, ConvRefine, ConvTotal, ConvChain, ConvTree,
   ConvSound, ConvTreeSound, QuietLaws + ConvStderr, the last part of TokLaws; OkReach for the corollary of C05).
   The declared grammar is Model/Conv.v: `level` (the conventional fragment), `compile` (the
   combinator term), `denote` (one left-to-right attribution scan + arity and value checks).
   Full statement for the fragment (C01_conformance): for every whole subcommand tree `l` (`tree_ok`: any number of
   subcommands with aliases at every level, names unique within a level and against everything below it;
   a level with subcommands has at least one named item, a leaf level at least two fields;
   `plain_cmds`: command names non-empty without a leading dash; both decidable) and every argv,
       denote l argv = Accept v  gives  run_inner (compile_options l) argv = OutOk v,
       denote l argv = Reject    gives  an error message on stderr,
   and `Unspecified` is the property's carve-out (help requests, ambiguous short clusters, dash-words, options of an
   enclosing level right of a command name).  C01_tree_complete / C01_tree_rejected_never_ok are the two directions
   for values; the flat and chain statements are the same for levels without, or with one, subcommand.
   How it is proved, by refinement in layers:
   AbsSim.v -- the evaluator of this fragment depends on the ledger only through its live tokens (a second
   interpreter over token lists; simulation by mutual induction);
   ConvRefine.v -- on the compiled level that interpreter computes what the attribution scan computes: every item takes
   exactly its own occurrences in order, the positional suffix the remaining words, or one of them is left behind
   (`item_spec`, `pos_spec`, read in both directions);
   ConvChain.v, ConvTree.v -- the command step (the scope narrows to what follows the command word; tokens of deeper
   levels are inert for the items of a level) and the alternative over subcommands (the branch whose name stands first
   on the line is picked);
   ConvSound.v, ConvTreeSound.v -- the converse: what the scan rejects (unknown name, name without value, stray value,
   word without a positional or that is no command) is a token no field can remove; fields take whole occurrences only
   (a value still on the line has its key still on the line), so the first token they leave is a key or the command
   word the scan stopped at -- and a key is never taken for a command (TokLaws.v: the text the tokenizer records for
   an option starts with a dash or is empty); the subcommand's own parser is judged by induction on the tree;
   ConvStderr.v -- a rejected vector holds no help flag, the compiled tree has no `adjacent`, carries the default Info
   and passes check_invariants at every level, so the run is total (TotalAll.v), does not end on stdout (QuietLaws.v)
   and is not a value: it is an error message on stderr (C01_tree_rejected_stderr).
   C01_flat_total: on EVERY vector the parser of a flat level yields a value, a help/version document or an error
   message, never a panic outcome or fuel exhaustion.  C01_unowned_key_never_value_partial: a key no item of a whole
   tree owns is never swallowed (corollary of C05's exactly-once theorem). *)
From Coq Require Import List Bool.
From BpafModel Require Import Conv.
From BpafLemmas Require Import Tac Find Reach Ledger NoLoss C05Lemmas OkReach ConvLaws AbsSim ConvRefine ConvTotal ConvChain ConvTree ConvSound ConvTreeSound QuietLaws ConvStderr.
Import ListNotations.

(* every sentence of a flat level, in every spelling and order the grammar admits, is accepted and
   yields exactly the value it denotes: occurrences attributed to the item that owns the name,
   repeated items in command-line order, absent optional items absent or defaulted *)
Theorem C01_sentences_accepted_flat :
  forall feat env items tail argv v,
  flat_ok items tail ->
  denote (Level items tail) argv = Accept v ->
  run_inner feat env (compile_options (Level items tail)) None argv = OutOk v.
Proof. exact denote_accept_flat. Qed.
Print Assumptions C01_sentences_accepted_flat.

(* the same for chains of nested subcommands *)
Theorem C01_sentences_accepted_chain :
  forall feat env l argv v,
  chain_ok l ->
  denote l argv = Accept v ->
  run_inner feat env (compile_options l) None argv = OutOk v.
Proof. exact denote_accept_chain. Qed.
Print Assumptions C01_sentences_accepted_chain.

Theorem C01_chain_ok_decidable : forall l, chain_okb l = true -> chain_ok l.
Proof. exact chain_okb_sound. Qed.
Print Assumptions C01_chain_ok_decidable.

(* the same for whole trees of subcommands: any number of subcommands (with aliases) at every level *)
Theorem C01_sentences_accepted_tree :
  forall feat env l argv v,
  tree_ok l ->
  denote l argv = Accept v ->
  run_inner feat env (compile_options l) None argv = OutOk v.
Proof. exact denote_accept_tree. Qed.
Print Assumptions C01_sentences_accepted_tree.

Theorem C01_tree_ok_decidable : forall l, tree_okb l = true -> tree_ok l.
Proof. exact tree_okb_sound. Qed.
Print Assumptions C01_tree_ok_decidable.

(* both directions for the flat level: on every vector the grammar specifies, the parser returns
   Ok v exactly for the sentences denoting v *)
Theorem C01_flat_complete :
  forall feat env items tail argv v,
  flat_ok items tail -> denote (Level items tail) argv <> Unspecified ->
  (denote (Level items tail) argv = Accept v <->
   run_inner feat env (compile_options (Level items tail)) None argv = OutOk v).
Proof. exact denote_complete_flat. Qed.
Print Assumptions C01_flat_complete.

(* ... and every other vector is an error: never a value *)
Theorem C01_flat_rejected_never_ok :
  forall feat env items tail argv,
  flat_ok items tail -> denote (Level items tail) argv = Reject ->
  forall v, run_inner feat env (compile_options (Level items tail)) None argv <> OutOk v.
Proof. exact denote_reject_flat. Qed.
Print Assumptions C01_flat_rejected_never_ok.

(* both directions for whole subcommand trees with plain command names *)
Theorem C01_tree_complete :
  forall feat env l argv v,
  tree_ok l -> plain_cmds l = true -> denote l argv <> Unspecified ->
  (denote l argv = Accept v <-> run_inner feat env (compile_options l) None argv = OutOk v).
Proof. exact denote_complete_tree. Qed.
Print Assumptions C01_tree_complete.

Theorem C01_tree_rejected_never_ok :
  forall feat env l argv,
  tree_ok l -> plain_cmds l = true -> denote l argv = Reject ->
  forall v, run_inner feat env (compile_options l) None argv <> OutOk v.
Proof. exact denote_reject_tree. Qed.
Print Assumptions C01_tree_rejected_never_ok.

(* ... it is reported as a failure on stderr *)
Theorem C01_tree_rejected_stderr :
  forall feat env l argv,
  tree_ok l -> plain_cmds l = true -> denote l argv = Reject ->
  exists m, run_inner feat env (compile_options l) None argv = OutStderr m.
Proof. exact denote_reject_stderr_tree. Qed.
Print Assumptions C01_tree_rejected_stderr.

(* THE PROPERTY, for every conventional definition (whole subcommand trees) and every vector:
   sentences yield exactly the value they denote, every other specified vector is a failure on
   stderr and never a value *)
Theorem C01_conformance :
  forall feat env l argv,
  tree_ok l -> plain_cmds l = true ->
  match denote l argv with
  | Accept v => run_inner feat env (compile_options l) None argv = OutOk v
  | Reject => exists m, run_inner feat env (compile_options l) None argv = OutStderr m
  | Unspecified => True
  end.
Proof.
  intros feat env l argv Hok Hpl. destruct (denote l argv) as [v| |] eqn:Hd; [|exact (denote_reject_stderr_tree feat env l argv Hok Hpl Hd)|exact I].
  exact (denote_accept_tree feat env l argv v Hok Hd).
Qed.
Print Assumptions C01_conformance.

(* every conventional tree is total on every vector *)
Theorem C01_tree_total :
  forall feat env l name argv, tree_ok l -> normal_outcome (run_inner feat env (compile_options l) name argv).
Proof. exact tree_run_total. Qed.
Print Assumptions C01_tree_total.

(* every vector, sentence or not: the outcome is a value, a help/version document or an error
   message -- never a panic outcome, never fuel exhaustion *)
Theorem C01_flat_total :
  forall feat env items tail argv,
  flat_ok items tail ->
  normal_outcome (run_inner feat env (compile_options (Level items tail)) None argv).
Proof. exact flat_run_total. Qed.
Print Assumptions C01_flat_total.

(* the fragment's evaluator sees the ledger only through its live tokens *)
Theorem C01_evaluator_depends_on_live_tokens_only :
  forall env n p, flatp p = true -> sim_ev n (eval env p) (aeval (S (S n)) p).
Proof. exact eval_sim. Qed.
Print Assumptions C01_evaluator_depends_on_live_tokens_only.

(* a key (`-x`, `--name`, with or without an attached value) that no item of the level tree owns
   and whose text is not a command name is never swallowed: no value is returned *)
Theorem C01_unowned_key_never_value_partial :
  forall feat env l name argv st amb i a,
  initial_state (compile_options l) name argv = (st, amb) ->
  nth_error (items st) i = Some a -> live st i -> is_key a = true ->
  (forall it, In it (all_items l) -> matches_arg (item_named it) false a = false) ->
  (forall w, In w (all_cmd_names l) -> beqb (arg_os a) w = false) ->
  forall v, run_inner feat env (compile_options l) name argv <> OutOk v.
Proof. exact unowned_key_never_value. Qed.
Print Assumptions C01_unowned_key_never_value_partial.

(* the declarative grammar at work: `-v`, `--out=FILE` (required), words...; sentences in two
   spellings denote the same value, a duplicated switch / a missing required argument / a value
   glued to a switch are not sentences, `--help` is left to C10 *)
Definition ex_level : level :=
  Level [CSwitch (mkNamed [118%N] [[118;101;114;98]%N] [] None);
         CArg (mkNamed [111%N] [[111;117;116]%N] [] None) [70%N] TyString ARequired]
        (TPos [mkCPos [87%N] TyString QMany]).
Example C01_example :
  denote ex_level [[45;118]; [45;45;111;117;116;61;120]; [97]; [98]]%N
    = Accept (VTuple [VBool true; VBytes [120%N]; VList [VBytes [97%N]; VBytes [98%N]]]) /\
  denote ex_level [[97]; [45;111;120]; [98]; [45;45;118;101;114;98]]%N
    = Accept (VTuple [VBool true; VBytes [120%N]; VList [VBytes [97%N]; VBytes [98%N]]]) /\
  denote ex_level [[45;118]; [45;118]; [45;111;120]]%N = Reject /\
  denote ex_level [[45;118]]%N = Reject /\
  denote ex_level [[45;45;118;101;114;98;61;49]; [45;111;120]]%N = Reject /\
  denote ex_level [[45;45;104;101;108;112]]%N = Unspecified /\
  run_inner (mkFeat true true false) (fun _ => None) (compile_options ex_level) None
            [[45;118]; [45;45;111;117;116;61;120]; [97]; [98]]%N
    = OutOk (VTuple [VBool true; VBytes [120%N]; VList [VBytes [97%N]; VBytes [98%N]]]).
Proof. vm_compute. repeat split; reflexivity. Qed.

(* the premises of C01_sentences_accepted_flat are satisfiable and decidable: `flat_okb` is a
   boolean sufficient condition (checked on every generated level by the conformance run) *)
Theorem C01_flat_ok_decidable :
  forall items tail, flat_okb items tail = true -> flat_ok items tail.
Proof. exact flat_okb_sound. Qed.
Print Assumptions C01_flat_ok_decidable.

Example C01_example_flat_ok :
  flat_ok [CSwitch (mkNamed [118%N] [[118;101;114;98]%N] [] None);
           CArg (mkNamed [111%N] [[111;117;116]%N] [] None) [70%N] TyString ARequired]
          (TPos [mkCPos [87%N] TyString QMany]).
Proof. apply flat_okb_sound. vm_compute. reflexivity. Qed.

(* a level offering two subcommands meets the premises of C01_sentences_accepted_tree *)
Example C01_example_tree_ok :
  tree_ok (Level [CSwitch (mkNamed [118%N] [] [] None)]
                 (TCmds (CCons [97%N] [] (Level [CSwitch (mkNamed [120%N] [] [] None); CSwitch (mkNamed [121%N] [] [] None)] TNone)
                        (CCons [98%N] [[99%N]] (Level [CSwitch (mkNamed [122%N] [] [] None); CSwitch (mkNamed [119%N] [] [] None)] TNone) CNil)))).
Proof. apply tree_okb_sound. vm_compute. reflexivity. Qed.
