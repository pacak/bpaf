(* C16 -- Generated documentation is complete and well-formed.
   Property theorems only; proofs live in Lemmas/RoffLaws.v, Lemmas/HtmlLaws.v, Lemmas/HelpItems.v and
   Lemmas/BalLaws.v (the documents exist and are balanced).
   Model/Docs.v (section extraction, the html and manpage documents, Doc::render_html, Doc::render_markdown, the Roff
   builder, escape, Doc::render_roff) is compared with the library on every run: documents token
   for token, HTML, markdown and manpage text byte for byte. *)
From Coq Require Import List NArith Bool.
From BpafModel Require Import Docs.
From BpafLemmas Require Import RoffLaws HtmlLaws HelpItems BalLaws.
Import ListNotations.

(* ---- manpage: for EVERY document (any help text, name, metavariable, title) and any `.TH`
   arguments, walking the output line by line never meets a line that begins with `.` or `'`
   unless that byte was written by bpaf as the start of a request (or is its fixed preamble) *)
Theorem C16_roff_control_lines :
  forall th d fs, render_roff_frags th d = Some fs ->
  exists r, chk true (roff_render_tagged fs) = Some r.
Proof. exact roff_control_lines. Qed.
Print Assumptions C16_roff_control_lines.

(* what `chk` accepting means, in words: any byte `.`/`'` that follows a newline (or starts the
   output) has origin OCtl *)
Theorem C16_roff_checker_meaning :
  forall out r r', chk r out = Some r' ->
  forall pre c o post, out = pre ++ (c, o) :: post ->
    (match rev pre with [] => r = true | (x, _) :: _ => x = 10%N end) ->
    (c = 46%N \/ c = 39%N) -> o = OCtl.
Proof. exact chk_sound. Qed.
Print Assumptions C16_roff_checker_meaning.

(* ---- manpage: user text is read back exactly by a reader of roff text that understands only
   \& \\ \- "\ " \*(Aq and REJECTS any other escape: nothing in a help text, a metavariable, a name
   (Special), an item term (SpecialNoNewline: newlines become spaces) or a request argument
   (Spaces: section titles, command paths, the application name) is interpreted as an escape *)
Theorem C16_roff_text_roundtrip :
  forall s a, unroff (untag (fst (esc_bytes ESpecial a s))) = Some s.
Proof. exact special_roundtrip. Qed.
Print Assumptions C16_roff_text_roundtrip.

Theorem C16_roff_term_roundtrip :
  forall s a, unroff (untag (fst (esc_bytes ESpecialNoNl a s))) = Some (map nl_to_sp s).
Proof. exact special_nonl_roundtrip. Qed.
Print Assumptions C16_roff_term_roundtrip.

Theorem C16_roff_argument_roundtrip :
  forall s a, unroff (untag (fst (esc_bytes ESpaces a s))) = Some (map nl_to_sp s).
Proof. exact spaces_roundtrip. Qed.
Print Assumptions C16_roff_argument_roundtrip.

(* ---- HTML: the tags a reader of the bytes sees are exactly the renderer's own; user text never
   opens, closes or breaks a tag *)
Theorem C16_html_tags_exact :
  forall evs, html_tags (html_bytes evs) = Some (flat_map ev_tags evs).
Proof. exact html_tags_exact. Qed.
Print Assumptions C16_html_tags_exact.

(* ---- HTML: balanced blocks in, well-nested tags out (for any balanced document; that the documents bpaf
   builds are balanced is C16_html_document_total_balanced below, and C16_html_well_nested puts the two together) *)
Theorem C16_html_well_nested_partial :
  forall full d evs, bal [] d = true -> render_html_events full d = Some evs -> wn [] evs = Some [].
Proof. exact html_well_nested. Qed.
Print Assumptions C16_html_well_nested_partial.

(* ---- the documents bpaf builds ARE balanced, for every parser definition whose own documents (help
   texts, group titles, custom usage, description, header, footer: `odok`) are, and hold neither Block::Meta
   nor Block::TermRef -- the Doc API can build no others.  So the hypothesis of the theorem above is met by the HTML document of every parser, the
   renderers `succeed for every parser` as far as the document is concerned (section extraction never runs
   out of fuel, the group loop of write_help_item_groups terminates), and the same holds for the manpage
   document and for --help *)
Theorem C16_html_document_total_balanced :
  forall env app o, odok o ->
  exists d, collect_html env app (ometa_of o) (oinfo_of o) = Some d /\ bal [] d = true.
Proof. exact html_document_total_balanced. Qed.
Print Assumptions C16_html_document_total_balanced.

Theorem C16_manpage_document_total_balanced :
  forall env app o, odok o ->
  exists d, manpage_doc env app (ometa_of o) (oinfo_of o) = Some d /\ bal [] d = true.
Proof. exact manpage_document_total_balanced. Qed.
Print Assumptions C16_manpage_document_total_balanced.

(* ---- `render_html`, `render_markdown` and `render_manpage` succeed for every parser: the documents exist (above) and hold
   no block their renderer cannot handle -- Block::Meta is `todo!()` in the HTML renderer, Block::TermRef in
   the roff one; neither can come from a user's Doc, and bpaf's own writers put Meta only into the manpage *)
Theorem C16_render_html_succeeds :
  forall env app o full, odok o ->
  exists d html, collect_html env app (ometa_of o) (oinfo_of o) = Some d /\ render_html full d = Some html.
Proof. exact render_html_returns. Qed.
Print Assumptions C16_render_html_succeeds.

(* `render_markdown` renders the document `render_html` renders; its only panic site is Block::Meta too *)
Theorem C16_render_markdown_succeeds :
  forall env app o full, odok o ->
  exists d md, collect_html env app (ometa_of o) (oinfo_of o) = Some d /\ render_markdown full d = Some md.
Proof. exact render_markdown_returns. Qed.
Print Assumptions C16_render_markdown_succeeds.

Theorem C16_render_manpage_succeeds :
  forall env app o, odok o ->
  exists d man, manpage_doc env app (ometa_of o) (oinfo_of o) = Some d /\ render_roff (manpage_th app) d = Some man.
Proof. exact render_manpage_returns. Qed.
Print Assumptions C16_render_manpage_succeeds.

(* ---- HTML, full statement: for every parser, every tag of the generated page is closed by its own kind *)
Theorem C16_html_well_nested :
  forall env app o full d evs, odok o ->
  collect_html env app (ometa_of o) (oinfo_of o) = Some d ->
  render_html_events full d = Some evs -> wn [] evs = Some [].
Proof. exact html_well_nested_parser. Qed.
Print Assumptions C16_html_well_nested.

(* ---- completeness: each section lists, through the very function --help uses, exactly the
   visible leaves of its command level (the statement of C12_items_exact) *)
Theorem C16_section_items_exact :
  forall p no_subsections, reals (append_go (meta_of p) no_subsections []) = vis p.
Proof. exact help_items_exact. Qed.
Print Assumptions C16_section_items_exact.

(* non-vacuity of `odok`: a subcommand tree with help texts, a group title and a styled help Doc that
   embeds another one *)
Example C16_example_odok :
  let t (s : list N) : doc := [TText SText s] in
  let sub := Options (PGroupHelp (PFlag (mkNamed [120%N] [] [] (Some (t [104%N]))) VUnit (Some VUnit)) (t [71; 10; 98]%N))
                     default_info in
  let o := Options (PCon (PCons (PArg (mkNamed [] [[110; 97]%N] [] (Some ([TText SText [97%N]; TStart BInlineBlock;
                                         TText SLiteral [98%N]; TEnd BInlineBlock]))) [78%N] TyString false)
                         (PCons (PCmd [99%N] [] [] (Some (t [99%N])) false sub) PNil))) default_info in
  odok o /\ exists d, collect_html (fun _ => None) [97%N] (ometa_of o) (oinfo_of o) = Some d /\ bal [] d = true.
Proof.
  cbv zeta. split.
  - cbn. repeat split; try exact I; try (intros st; reflexivity); reflexivity.
  - eexists. split; vm_compute; reflexivity.
Qed.

(* non-vacuity: a help text that begins with `.so` on its second line, inside a block *)
Example C16_example :
  let d := [TStart BBlock; TText SText [97; 10; 46; 115; 111; 32; 47; 120]%N; TEnd BBlock] in
  render_roff [[97]%N] d =
    Some (preamble ++ [46;84;72;32;97;10; 46;80;80;10; 92;102;82; 97;10; 92;38;46;115;111;32;47;120; 92;102;80]%N)
  /\ bal [] d = true.
Proof. vm_compute. split; reflexivity. Qed.
