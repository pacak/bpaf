(* C17 -- Derive and combinatoric APIs define the same parser.
   Property theorems only; proofs live in Lemmas/DeriveLaws.v.
   PARTIAL by nature: the proc-macro (syn-level Rust) is not modelled.  Model/Derive.v states the
   documented rules -- implicit consumer and shape from the field type, implicit kebab-case naming,
   what each explicit annotation overrides -- as a function from a field definition to the
   combinator plan; the check prints the hand-written parser FROM THAT PLAN (extracted) and compares
   it with the real #[derive(Bpaf)] output on every run.  The theorems are about the rules. *)
From Coq Require Import List Bool NArith.
From BpafModel Require Import Derive.
From BpafLemmas Require Import DeriveLaws.
Import ListNotations.

(* a derived long name never contains an upper-case ASCII letter or an underscore *)
Theorem C17_kebab_alphabet :
  forall s b, forallb kebab_char_ok (kebab_go s b) = true.
Proof. exact kebab_alphabet. Qed.
Print Assumptions C17_kebab_alphabet.

Theorem C17_kebab_idempotent :
  forall s, to_kebab_case (to_kebab_case s) = to_kebab_case s.
Proof. exact kebab_idempotent. Qed.
Print Assumptions C17_kebab_idempotent.

(* distinct snake_case / lower-case field names get distinct long names *)
Theorem C17_kebab_injective_on_snake_case :
  forall a b ba bb, forallb snake_char a = true -> forallb snake_char b = true ->
  kebab_go a ba = kebab_go b bb -> a = b.
Proof. exact kebab_snake_injective. Qed.
Print Assumptions C17_kebab_injective_on_snake_case.

(* implicit rules: `name: bool / () / T / Option<T> / Vec<T>` -> switch / req_flag / argument,
   optional, many; long name = kebab-case of the field name (names of two or more characters:
   a one-character name becomes a short name) *)
Theorem C17_implicit_rules :
  forall i sh, (2 <= length i)%nat ->
  derive_field (mkField (Some i) sh [] None false None) =
  Some (mkPlan [] [to_kebab_case i] []
               (match sh with ShBool => KSwitch | ShUnit => KReqFlagK | _ => KArgumentK default_metavar end)
               (match sh with ShOptional => [PoOptional] | ShMultiple => [PoMany] | _ => [] end) None).
Proof. exact implicit_rules. Qed.
Print Assumptions C17_implicit_rules.

Theorem C17_unnamed_is_positional :
  forall sh, sh <> ShBool -> sh <> ShUnit ->
  derive_field (mkField None sh [] None false None) =
  Some (mkPlan [] [] [] (KPositionalK default_metavar)
               (match sh with ShOptional => [PoOptional] | ShMultiple => [PoMany] | _ => [] end) None).
Proof. exact unnamed_is_positional. Qed.
Print Assumptions C17_unnamed_is_positional.

(* explicit annotations override exactly what they name *)
Theorem C17_names_override_only_names :
  forall i sh ns ns' c fb h p p',
  derive_field (mkField (Some i) sh ns c fb h) = Some p ->
  derive_field (mkField (Some i) sh ns' c fb h) = Some p' ->
  pl_cons p = pl_cons p' /\ pl_post p = pl_post p' /\ pl_help p = pl_help p'.
Proof. exact names_only_names. Qed.
Print Assumptions C17_names_override_only_names.

Theorem C17_doc_comment_is_only_help :
  forall i sh ns c fb h h' p,
  derive_field (mkField i sh ns c fb h) = Some p ->
  derive_field (mkField i sh ns c fb h') =
    Some (mkPlan (pl_short p) (pl_long p) (pl_env p) (pl_cons p) (pl_post p) h').
Proof. exact help_only_help. Qed.
Print Assumptions C17_doc_comment_is_only_help.

Example C17_example :
  to_kebab_case [111;117;116;112;117;116;70;105;108;101]%N = [111;117;116;112;117;116;45;102;105;108;101]%N /\
  to_kebab_case [109;97;120;95;100;101;112;116;104]%N = [109;97;120;45;100;101;112;116;104]%N /\
  pl_short (match derive_field (mkField (Some [118%N]) ShBool [] None false None) with Some p => p | None => mkPlan [] [] [] KSwitch [] None end) = [118%N].
Proof. vm_compute. repeat split; reflexivity. Qed.

(* The doc comment of an `options` / `command` type (Model/Derive.v doc_blocks / options_help: blocks cut at double
   empty lines; description / header / footer): an explicit descr(..) / header(..) / footer(..) annotation overrides
   EXACTLY the part it names -- that part becomes the annotation, every other part depends on the doc comment and its
   own annotation only. *)
Theorem C17_options_annotation_overrides_its_part :
  forall doc d h f,
    (forall x, d = Some x -> fst (fst (options_help doc d h f)) = Some x) /\
    (forall x, h = Some x -> snd (fst (options_help doc d h f)) = Some x) /\
    (forall x, f = Some x -> snd (options_help doc d h f) = Some x).
Proof. exact options_help_explicit. Qed.
Print Assumptions C17_options_annotation_overrides_its_part.

Theorem C17_options_annotation_overrides_only_its_part :
  forall doc d h f d' h' f',
    fst (fst (options_help doc d h f)) = fst (fst (options_help doc d h' f')) /\
    snd (fst (options_help doc d h f)) = snd (fst (options_help doc d' h f')) /\
    snd (options_help doc d h f) = snd (options_help doc d' h' f).
Proof. exact options_help_local. Qed.
Print Assumptions C17_options_annotation_overrides_only_its_part.

(* three blocks "a", "b\n\nc" (a single empty line stays inside a block), then an empty block and "d" *)
Example C17_example_blocks :
  doc_blocks [97;10;10;10;98;10;10;99;10;10;10;10;10;100]%N = [[97]; [98; 10; 10; 99]; []; [100]]%N.
Proof. reflexivity. Qed.
