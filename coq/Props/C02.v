(* C02 -- Equivalent spellings mean the same thing; values arrive byte-exact.
   Property theorems only; proofs live in Lemmas/.  Byte strings are arbitrary lists of bytes:
   every law below holds for empty values, values containing `=`, spaces, dashes, non-UTF-8. *)
From BpafLemmas Require Import Tac TokLaws LeafLaws.

(* --name=value : the name is the text before the first `=`, the value every byte after it *)
Theorem C02_long_eq :
  forall n v, no_eq n -> utf8_valid n = true ->
    split_os_argument (c_dash :: c_dash :: n ++ c_eq :: v) = Some (ATLong, n, Some v).
Proof. exact split_long_eq. Qed.
Print Assumptions C02_long_eq.

Theorem C02_long_plain :
  forall n, no_eq n -> n <> [] -> utf8_valid n = true ->
    split_os_argument (c_dash :: c_dash :: n) = Some (ATLong, n, None).
Proof. exact split_long_plain. Qed.
Print Assumptions C02_long_plain.

(* -c=value and -c, for one-byte short names *)
Theorem C02_short_eq :
  forall c v, (c <? 128)%N = true -> (c =? c_dash)%N = false ->
    split_os_argument (c_dash :: c :: c_eq :: v) = Some (ATShort, [c], Some v).
Proof. exact split_short_eq. Qed.
Print Assumptions C02_short_eq.

Theorem C02_short_plain :
  forall c, (c <? 128)%N = true -> (c =? c_dash)%N = false ->
    split_os_argument [c_dash; c] = Some (ATShort, [c], None).
Proof. exact split_short_plain. Qed.
Print Assumptions C02_short_plain.

(* -cvalue where the value contains `=`: everything after the first character, `=` included *)
Theorem C02_short_adj_eq :
  forall c v1 v2, (c <? 128)%N = true -> (c =? c_dash)%N = false -> no_eq v1 -> v1 <> [] ->
    split_os_argument (c_dash :: c :: v1 ++ c_eq :: v2) = Some (ATShort, [c], Some (v1 ++ c_eq :: v2)).
Proof. exact split_short_adj_eq. Qed.
Print Assumptions C02_short_adj_eq.

(* ... and for short names of ANY character, one to four bytes long (/repo with fix 585374b: the name ends after its
   first CHARACTER, not its first byte, so `-ж=1` is read like `-j=1`): `-X=value` gives the name X and every byte
   after the `=` *)
Theorem C02_short_eq_any_char :
  forall n v ch,
    utf8_decode n = Some [ch] -> (hd 0%N n =? c_dash)%N = false ->
    split_os_argument (c_dash :: n ++ c_eq :: v) = Some (ATShort, n, Some v).
Proof. exact split_short_eq_char. Qed.
Print Assumptions C02_short_eq_any_char.

(* ... and `-Xvalue=more`: everything after the CHARACTER X is the value, the `=` included *)
Theorem C02_short_adj_eq_any_char :
  forall n v1 v2 ch,
    utf8_decode n = Some [ch] -> (hd 0%N n =? c_dash)%N = false -> no_eq v1 -> v1 <> [] ->
    split_os_argument (c_dash :: n ++ v1 ++ c_eq :: v2) = Some (ATShort, n, Some (v1 ++ c_eq :: v2)).
Proof. exact split_short_adj_eq_char. Qed.
Print Assumptions C02_short_adj_eq_any_char.

Example C02_example_cyrillic_short :
  split_os_argument [45; 208; 182; 61; 49]%N = Some (ATShort, [208; 182]%N, Some [49%N]).
Proof. exact split_short_eq_cyrillic. Qed.

(* -abc = -a -b -c when every letter is a declared flag and none is also an argument *)
Theorem C02_cluster :
  forall sf sa os cs,
    (forall c, In c cs -> mem_N c sf = true /\ mem_N c sa = false) -> length cs >= 2 ->
    disambiguate_short sf sa os cs =
    DisOk (match cs with
           | [] => []
           | c :: t => Short c false os :: map (fun c => Short c false []) t
           end).
Proof. exact cluster_tokens. Qed.
Print Assumptions C02_cluster.

(* tokens are computed item by item: respelling one occurrence changes only its own tokens *)
Theorem C02_tokens_local :
  forall sf sa a b ta tb,
    pre_tokens sf sa a = Some ta -> pre_tokens sf sa b = Some tb ->
    pre_tokens sf sa (a ++ b) = Some (ta ++ tb).
Proof. exact pre_tokens_app. Qed.
Print Assumptions C02_tokens_local.

Theorem C02_tokenize :
  forall sf sa pre toks, pre_tokens sf sa pre = Some toks -> tokenize sf sa pre = mkTok toks None None.
Proof. exact tokenize_no_dashdash. Qed.
Print Assumptions C02_tokenize.

(* the consumer does not distinguish a separated value from an attached one, and hands over the
   token's bytes unchanged *)
Theorem C02_take_arg_value :
  forall n adj s k w,
    find_item s (fun _ a => matches_arg n adj a) = Some k ->
    (get s (S k) = Some (Word w) \/ get s (S k) = Some (ArgWord w)) ->
    take_arg n adj s = TASome w (sremove (KArgVal n) (S k) (sremove (KArgKey n) k s)).
Proof. exact take_arg_value. Qed.
Print Assumptions C02_take_arg_value.

Theorem C02_value_exact_os :
  forall w, convert TyOsString w = inl (VBytes w) /\ convert TyPathBuf w = inl (VBytes w).
Proof. exact convert_os_exact. Qed.
Print Assumptions C02_value_exact_os.

Theorem C02_value_exact_string :
  forall w, (utf8_valid w = true -> convert TyString w = inl (VBytes w)) /\
            (utf8_valid w = false -> exists e, convert TyString w = inr e).
Proof. exact convert_string_exact. Qed.
Print Assumptions C02_value_exact_string.

(* an argument restricted with `adjacent` only matches keys that carry their value in the same item *)
Theorem C02_adjacent_only_attached :
  forall n a, matches_arg n true a = true ->
    match a with Short _ adj _ | Long _ adj _ => adj = true | _ => False end.
Proof.
  intros n a. destruct a; cbn; try discriminate; intros H; apply andb_prop in H; destruct H as [_ H];
    destruct adj; cbn in H; congruence.
Qed.
Print Assumptions C02_adjacent_only_attached.

Example C02_example :
  tokenize [] [110%N] [[45;45;110;97;109;101;61;61;61]%N; [45;110;61]%N] =
  mkTok [Long [110;97;109;101]%N true [45;45;110;97;109;101;61;61;61]%N; ArgWord [61;61]%N;
         Short 110%N true [45;110;61]%N; ArgWord []] None None.
Proof. vm_compute. reflexivity. Qed.

(* ------------------------------------------------------------------ whole conventional trees *)
(* After tokenisation the spellings `--name value`, `--name=value`, `-n value`, `-n=value`, `-nvalue`
   of one argument, and `-abc` against `-a -b -c`, differ only in the `adjacent` bit and the recorded
   text of the option tokens, in which of its names an item is written with, and in whether a VALUE is
   a Word or an ArgWord (theorems above).  `Resp l` relates two token lists that differ in nothing
   else, level by level through the subcommand tree.  The grammar does not tell such lists apart
   (ConvRespell.v), so by C01_conformance the parser does not either: both vectors are accepted with
   the same value, or both are reported on stderr. *)
From Coq Require Import List NArith.
From BpafModel Require Import Conv.
From BpafLemmas Require Import ConvRefine ConvChain ConvTree ConvSound ConvRespell.
Import ListNotations.

Theorem C02_respelling_tree :
  forall feat env l argv1 argv2,
  tree_ok l -> plain_cmds l = true ->
  let st := short_tables (compile_options l) in
  let t1 := tokenize (fst st) (snd st) argv1 in
  let t2 := tokenize (fst st) (snd st) argv2 in
  t_ambiguity t1 = None -> t_ambiguity t2 = None ->
  Resp l (mark_tokens t1) (mark_tokens t2) ->
  denote l argv1 <> Unspecified -> denote l argv2 <> Unspecified ->
  (exists v, run_inner feat env (compile_options l) None argv1 = OutOk v /\
             run_inner feat env (compile_options l) None argv2 = OutOk v) \/
  (exists m1 m2, run_inner feat env (compile_options l) None argv1 = OutStderr m1 /\
                 run_inner feat env (compile_options l) None argv2 = OutStderr m2).
Proof. exact respell_outcome. Qed.
Print Assumptions C02_respelling_tree.

Theorem C02_respelling_same_verdict :
  forall l argv1 argv2,
  let st := short_tables (compile_options l) in
  let t1 := tokenize (fst st) (snd st) argv1 in
  let t2 := tokenize (fst st) (snd st) argv2 in
  t_ambiguity t1 = None -> t_ambiguity t2 = None ->
  Resp l (mark_tokens t1) (mark_tokens t2) ->
  vsimv (denote l argv1) (denote l argv2).
Proof. exact respell_verdict. Qed.
Print Assumptions C02_respelling_same_verdict.

(* the relation is inhabited by the spellings the property lists: `--out=x -v a`, `-o x --verb a`
   for a level with the switch -v/--verb, the argument -o/--out and positional words *)
Definition c02_level : level :=
  Level [CSwitch (mkNamed [118%N] [[118;101;114;98]%N] [] None);
         CArg (mkNamed [111%N] [[111;117;116]%N] [] None) [70%N] TyString ARequired]
        (TPos [mkCPos [87%N] TyString QMany]).
Definition c02_toks (argv : list bytes) :=
  mark_tokens (tokenize (fst (short_tables (compile_options c02_level))) (snd (short_tables (compile_options c02_level))) argv).
Example C02_example_respell :
  Resp c02_level (c02_toks [[45;45;111;117;116;61;120]; [45;118]; [97]]%N)
                 (c02_toks [[45;111]; [120]; [45;45;118;101;114;98]; [97]]%N).
Proof.
  vm_compute.
  eapply RKeyVal; [repeat split; try reflexivity; discriminate|vm_compute; reflexivity|reflexivity|reflexivity|reflexivity|].
  eapply RFlagKey; [repeat split; try reflexivity; discriminate| |].
  - intros j it H. vm_compute in H. inversion H; subst. reflexivity.
  - eapply RTok; [reflexivity|reflexivity|intros cs w H; discriminate|]. apply RNil.
Qed.
