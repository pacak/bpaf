(* C19 -- Adjacent groups consume contiguous blocks only.
   Property theorems only; proofs live in Lemmas/.
   `ev_inscope ev` = the group's member parser keeps its scope and consumes only inside it; it is
   proved below for the shapes the property quantifies over (flags, arguments, positionals under optional
   / many / some / count / last / fallback / guard / parse / map / hide, combined by construct!). *)
From BpafModel Require Import Wf.
From BpafLemmas Require Import Tac Find Reach Ledger NoLoss C05Lemmas AdjLaws AdjTotal.

(* The block theorem.  If `construct!(..).adjacent()` yields a value, there is ONE interval [a, b)
   of the line such that every item of it that was available is consumed by the group, nothing
   outside it is consumed, and the enclosing scope is handed back unchanged: the value is never
   pieced together from non-neighbouring items. *)
Theorem C19_contiguous :
  forall ev fi s v s',
    ev_inscope ev -> lenwf s ->
    eval_adjacent ev fi s = (ROk v, s') ->
    exists a b,
      (forall i, a <= i < b -> live s i -> ~ live s' i) /\
      (forall i, live s i -> ~ live s' i -> a <= i < b) /\
      same_scope s s'.
Proof. exact eval_adjacent_block. Qed.
Print Assumptions C19_contiguous.

(* ... and the block starts at the start offset that succeeded (the group's first item) *)
Theorem C19_block_starts_at_first_item :
  forall ev orig width start best v fin,
    ev_inscope ev -> lenwf orig ->
    adj_try ev orig width start best = AReturn v fin ->
    exists b,
      (forall i, start <= i < b -> live orig i -> ~ live fin i) /\
      (forall i, live orig i -> ~ live fin i -> start <= i < b) /\
      same_scope orig fin.
Proof. exact adj_try_block. Qed.
Print Assumptions C19_block_starts_at_first_item.

(* which block: the start offsets (available items of the scope, left to right: C19_starts_left_to_right) are
   tried in order and the value comes from the FIRST one at which the group parses -- so repeating the group
   yields one value per block in command-line order *)
Theorem C19_first_start_wins :
  forall ev orig width starts best v fin,
    adj_outer ev orig width starts best = (ROk v, fin) ->
    exists before start after best',
      starts = before ++ start :: after /\
      adj_try ev orig width start best' = AReturn v fin /\
      (forall st, In st before -> exists b0 b1, adj_try ev orig width st b0 = ANext b1).
Proof. exact adj_outer_first. Qed.
Print Assumptions C19_first_start_wins.

Theorem C19_starts_left_to_right :
  forall s width i j a b,
    nth_error (adj_starts s width) i = Some a -> nth_error (adj_starts s width) j = Some b -> i < j -> a < b.
Proof. exact adj_starts_sorted. Qed.
Print Assumptions C19_starts_left_to_right.

(* the window handed to an adjacent command / trimmed for a group is a run of live items *)
Theorem C19_window_live :
  forall s start,
    fst (adjacently_available_from s start) = start /\
    forall i, start <= i < snd (adjacently_available_from s start) -> live s i.
Proof. exact adjacently_available_live. Qed.
Print Assumptions C19_window_live.

(* the return condition of the retry loop: nothing available is left inside the final window *)
Theorem C19_return_condition :
  forall ta orig, lenwf ta -> adjacent_scope ta orig = ASNone ->
    forall i, sc_start ta <= i < sc_end ta -> ~ (live ta i /\ live orig i).
Proof. exact adjacent_scope_none. Qed.
Print Assumptions C19_return_condition.

(* the hypothesis is met by the groups of the property's quantifier *)
Theorem C19_members_inscope :
  forall env,
    (forall n p a, ev_inscope (eval_flag env n p a)) /\
    (forall n mv ty adj, ev_inscope (eval_arg env n mv ty adj)) /\
    (forall mv ty pos help, ev_inscope (eval_pos mv ty pos help)) /\
    (forall mv help check anywhere, ev_inscope (eval_any mv help check anywhere)) /\
    (forall ev c, ev_inscope ev -> ev_inscope (optional_body ev c)) /\
    (forall ev c m, ev_inscope ev -> ev_inscope (guard_body ev c m)) /\
    (forall ev f, ev_inscope ev -> ev_inscope (parse_body ev f)) /\
    (forall ev f, ev_inscope ev -> ev_inscope (map_body ev f)) /\
    (forall ev c, ev_inscope ev -> ev_inscope (many_body ev c)) /\
    (forall ev m c, ev_inscope ev -> ev_inscope (some_body ev m c)) /\
    (forall ev, ev_inscope ev -> ev_inscope (count_body ev)) /\
    (forall ev, ev_inscope ev -> ev_inscope (last_body ev)) /\
    (forall ev fb, ev_inscope ev -> ev_inscope (fallback_with_body ev fb)) /\
    (forall ev, ev_inscope ev -> ev_inscope (hide_body ev)) /\
    (forall eva evb, ev_inscope eva -> ev_inscope evb -> ev_inscope (or_body eva evb)) /\
    (forall ff evs, Forall ev_inscope evs -> ev_inscope (con_body ff evs)).
Proof. exact inscope_bodies. Qed.
Print Assumptions C19_members_inscope.

(* ... and by groups themselves: a group -- whatever its member parser does inside the windows the group opens, on
   success, on failure (the caller's scope is handed back: /repo with fix 3a2639c) and on the panic exits -- keeps the caller's scope
   and ledger length and consumes only inside the caller's scope.  So a group can be a member of a group: the block
   theorems above hold for NESTED groups (AdjTotal.v, invariant W: a window's state differs from the caller's only
   inside the caller's scope, and its available items lie inside it) *)
Theorem C19_group_is_a_member :
  forall ev, ev_inscope ev -> ev_reach (fun _ => True) ev -> forall fi, ev_inscope (eval_adjacent ev fi).
Proof. exact adjacent_inscope. Qed.
Print Assumptions C19_group_is_a_member.

Theorem C19_every_member_inscope :
  forall env p, memb p = true -> ev_inscope (eval env p).
Proof. exact (fun env => proj1 (memb_inscope env)). Qed.
Print Assumptions C19_every_member_inscope.

(* repeated groups: blocks in command-line order, and an interrupted block is not a value *)
Example C19_example :
  let pt := PAdj (PCons (PFlag (mkNamed [] [[112]%N] [] None) VUnit None)
                 (PCons (PPos [88%N] TyString Unrestricted None)
                 (PCons (PPos [89%N] TyString Unrestricted None) PNil))) in
  let p := PCon (PCons (PFlag (mkNamed [99%N] [] [] None) (VBool true) (Some (VBool false)))
                (PCons (PMany pt false) PNil)) in
  let o := Options p default_info in
  run_inner (mkFeat true true false) (fun _ => None) o None
            [[45;45;112]%N; [49]%N; [50]%N; [45;99]%N; [45;45;112]%N; [51]%N; [52]%N]
  = OutOk (VTuple [VBool true; VList [VTuple [VUnit; VBytes [49%N]; VBytes [50%N]];
                                      VTuple [VUnit; VBytes [51%N]; VBytes [52%N]]]]) /\
  (exists m, run_inner (mkFeat true true false) (fun _ => None) o None
               [[45;45;112]%N; [49]%N; [45;99]%N; [50]%N] = OutStderr m).
Proof. split; [|eexists]; vm_compute; reflexivity. Qed.
