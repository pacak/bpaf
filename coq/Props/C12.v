(* C12 -- Generated help documents exactly what the parser accepts.
   Property theorems only; proofs live in Lemmas/HelpItems.v (what is listed), Lemmas/HelpOrder.v (block order),
   Lemmas/HelpEntries.v (an item list is the entries of the items that survive the duplicate filter) and
   Lemmas/BalLaws.v (the document exists and is balanced).  The model of the help generator (Model/Help.v) is
   compared token for token with the library's Doc on every run.  PARTIAL: the content of the usage line is
   not stated as a theorem (oracle). *)
From Coq Require Import List NArith.
From BpafModel Require Import Help Eval.
From BpafLemmas Require Import HelpItems HelpOrder HtmlLaws BalLaws HelpEntries.
Import ListNotations.

(* `vis p` (Lemmas/HelpItems.v) is the direct specification: the visible leaves of a parser in
   declaration order -- each flag and argument with its FIRST short/long name, metavariable, env
   variable and help, each positional that has help, each command with its short alias and
   description; nothing under `hide`.  The entries collected for --help (Parser::meta followed by
   HelpItems::append_meta), structural markers aside, are exactly those: nothing is lost, nothing is
   added, for every parser shape. *)
Theorem C12_items_exact :
  forall p no_subsections, reals (append_go (meta_of p) no_subsections []) = vis p.
Proof. exact help_items_exact. Qed.
Print Assumptions C12_items_exact.

(* hide_usage / custom_usage change only the usage line, never the item lists *)
Theorem C12_usage_wrappers_keep_items :
  forall q d acc, append_meta acc (meta_of (PUsage q d)) = append_meta acc (meta_of q).
Proof. exact usage_only. Qed.
Print Assumptions C12_usage_wrappers_keep_items.

(* group_help adds a titled section; the entries stay the same *)
Theorem C12_group_help_same_entries :
  forall q d b, reals (append_go (meta_of (PGroupHelp q d)) b []) = vis q.
Proof. exact group_help_same_entries. Qed.
Print Assumptions C12_group_help_same_entries.

(* items under hide are not listed *)
Theorem C12_hidden_not_listed :
  forall q b, append_go (meta_of (PHide q)) b [] = [].
Proof. exact hidden_contributes_nothing. Qed.
Print Assumptions C12_hidden_not_listed.

(* every name shown for a flag / an argument is one its parser accepts (the first short and the
   first long name; aliases are accepted too but not shown) *)
Theorem C12_shown_flag_name_accepted :
  forall n it, flag_item n = Some it ->
  exists sl sh e h, it = IFlag sl sh e h /\
    match sl with
    | SLShort c => matches_arg n false (Short c false []) = true
    | SLLong l => matches_arg n false (Long l false []) = true
    | SLBoth c l => matches_arg n false (Short c false []) = true /\ matches_arg n false (Long l false []) = true
    end.
Proof. exact shown_flag_name_accepted. Qed.
Print Assumptions C12_shown_flag_name_accepted.

Theorem C12_shown_arg_name_accepted :
  forall n mv it, arg_item n mv = Some it ->
  exists sl sh e h, it = IArgument sl sh mv e h /\ sl_accepted n sl.
Proof. exact shown_arg_name_accepted. Qed.
Print Assumptions C12_shown_arg_name_accepted.

(* description ; usage ; header ; item lists ; footer -- in this order, each declared text a block
   of its own, whatever the items and the usage line are *)
Theorem C12_document_order :
  forall env path inf parser_meta help_meta include_env d,
  render_help env path inf parser_meta help_meta include_env = Some d ->
  exists usage items,
    d = dblock [] (i_descr inf) ++ ([TStart BBlock] ++ usage ++ [TEnd BBlock])
        ++ dblock [] (i_header inf) ++ items ++ dblock [] (i_footer inf).
Proof. exact render_help_order. Qed.
Print Assumptions C12_document_order.

(* One definition-list entry per non-duplicate item, nothing in between: written onto a document that does
   not end in a text chunk, an item list is EXACTLY the concatenation, in order, of the entries
   (`item_doc`: term, help body, environment line) of the items that survive the duplicate filter *)
Theorem C12_item_list_is_its_entries :
  forall env items include_env d seen keepf, closed d ->
  write_deduped env d items seen keepf include_env =
  d ++ flat_map (fun it => item_doc env it include_env) (kept items seen keepf).
Proof. exact write_deduped_entries. Qed.
Print Assumptions C12_item_list_is_its_entries.

(* a section (`Available options:` ...) is absent when no item of its kind is left, otherwise it is the
   header, the entries of the kept items of that kind, and the two closing tokens *)
Theorem C12_section_is_header_and_entries :
  forall env d items ty name include_env, closed d ->
  write_help_items env d items ty name include_env =
  d ++ match items_of_ty ty IBNo items with
       | [] => []
       | xs => [TStart BBlock; TStart BSection2; TText SEmphasis name; TEnd BSection2; TStart BDefinitionList]
               ++ flat_map (fun it => item_doc env it include_env) (kept xs [] false)
               ++ [TEnd BDefinitionList; TEnd BBlock]
       end.
Proof. intros env d items ty name ie _. apply help_section_entries. Qed.
Print Assumptions C12_section_is_header_and_entries.

(* the duplicate filter drops an item only when an entry with the same name, metavariable and help text
   has already been written in the same list *)
Theorem C12_dropped_items_are_duplicates :
  forall items seen keepf it k,
  In it items -> key_of it = Some k ->
  In it (kept items seen keepf) \/ existsb (dkey_eqb k) seen = true \/
  exists it' k', In it' (kept items seen keepf) /\ key_of it' = Some k' /\ dkey_eqb k k' = true.
Proof. exact kept_or_duplicate. Qed.
Print Assumptions C12_dropped_items_are_duplicates.

(* the help document exists and its blocks are balanced, for every parser definition whose own documents
   (help texts, group titles, custom usage, description, header, footer: `odok`) are balanced -- the Doc
   API builds no others: in particular the group loop of write_help_item_groups terminates *)
Theorem C12_help_document_total_balanced :
  forall env path o include_env, odok o ->
  exists d, render_help env path (oinfo_of o) (ometa_of o) (info_meta (oinfo_of o)) include_env = Some d /\
            bal [] d = true.
Proof. exact help_document_total_balanced. Qed.
Print Assumptions C12_help_document_total_balanced.

(* non-vacuity: `-v/--verbose/--loud` (alias), a hidden `--secret`, and `--out=FILE`: the list has
   exactly two entries, with the first names only *)
Example C12_example :
  let verbose := mkNamed [118%N] [[118;101;114;98]%N; [108;111;117;100]%N] [] None in
  let secret := mkNamed [] [[115;101;99]%N] [] None in
  let out := mkNamed [] [[111;117;116]%N] [] None in
  let p := PCon (PCons (PFlag verbose (VBool true) (Some (VBool false)))
                (PCons (PHide (PFlag secret (VBool true) (Some (VBool false))))
                (PCons (PArg out [70;73;76;69]%N TyString false) PNil))) in
  reals (append_go (meta_of p) false []) =
  [HFlag (SLBoth 118%N [118;101;114;98]%N) None None; HArgument (SLLong [111;117;116]%N) [70;73;76;69]%N None None].
Proof. vm_compute. reflexivity. Qed.
