(* C07 -- Alternatives are exclusive and chosen by what the user typed.
   Property theorems only; proofs live in Lemmas/. *)
From Coq Require Import Sorted.
From BpafLemmas Require Import TotalLaws.
From BpafLemmas Require Import Tac Reach Ledger NoLoss C05Lemmas OkReach CatchLaws ManyOrderList.

(* The decision rule of `a.or_else(b)` / construct!([a, b]) as a function of what the two forks did. *)
Theorem C07_deeper_wins :
  forall ra rb s sa sb, depth sa < depth sb ->
    this_or_that ra rb s sa sb = (match rb with RErr e => inr e | _ => inl false end, sb).
Proof. exact deeper_wins. Qed.
Theorem C07_deeper_wins_left :
  forall ra rb s sa sb, depth sb < depth sa ->
    this_or_that ra rb s sa sb = (match ra with RErr e => inr e | _ => inl true end, sa).
Proof. exact deeper_wins_left. Qed.
Theorem C07_only_success_wins :
  forall va e s sa sb, depth sa = depth sb ->
    this_or_that (ROk va) (RErr e) s sa sb = (inl true, sa) /\
    this_or_that (RErr e) (ROk va) s sa sb = (inl false, sb).
Proof. exact only_success_wins. Qed.
Theorem C07_both_fail :
  forall ea eb s sa sb, depth sa = depth sb ->
    this_or_that (RErr ea) (RErr eb) s sa sb = (inr (combine_with ea eb), s).
Proof. exact both_fail. Qed.
Theorem C07_both_succeed :
  forall va vb s sa sb, depth sa = depth sb ->
    this_or_that (ROk va) (ROk vb) s sa sb =
    (if Nat.eqb (remaining s) (remaining sa) && Nat.eqb (remaining s) (remaining sb)
     then (inl true, sa)
     else match pick_winner sa sb with
          | (true, Some w) => (inl true, save_conflicts sa sb w)
          | (true, None) => (inl true, sa)
          | (false, Some w) => (inl false, save_conflicts sb sa w)
          | (false, None) => (inl false, sb)
          end).
Proof. exact both_succeed. Qed.
Print Assumptions C07_deeper_wins.
Print Assumptions C07_only_success_wins.
Print Assumptions C07_both_fail.
Print Assumptions C07_both_succeed.

(* "the one whose item appears leftmost wins, ties going to the alternative listed first":
   pick_winner returns the first index at which exactly one fork consumed the item, and the fork
   that consumed it; with no such index, the first fork. *)
Theorem C07_leftmost_wins :
  forall sa sb b r, pick_winner sa sb = (b, r) ->
    match r with
    | Some j =>
      (forall k, k < j -> forall x y, nth_error (ist sa) k = Some x -> nth_error (ist sb) k = Some y ->
                                      parsed x = parsed y) /\
      (exists x y, nth_error (ist sa) j = Some x /\ nth_error (ist sb) j = Some y /\
                   parsed x = b /\ parsed y = negb b)
    | None => b = true
    end.
Proof. exact pick_winner_spec. Qed.
Print Assumptions C07_leftmost_wins.

(* the loser's consumed items are remembered as conflicts -- and stay LIVE, so that a later
   `Unconsumed` check reports them instead of ignoring them *)
Theorem C07_conflicts_marked :
  forall win winner loser i w l,
    nth_error winner i = Some w -> nth_error loser i = Some l ->
    nth_error (save_conflicts_go win winner loser) i =
    Some (if present w && parsed l then Conflict win else w).
Proof. exact conflicts_marked. Qed.
Print Assumptions C07_conflicts_marked.

(* the value is the value of one of the two forks *)
Theorem C07_returns_a_branch :
  forall eva evb s v s', or_body eva evb s = (ROk v, s') -> fst (eva s) = ROk v \/ fst (evb s) = ROk v.
Proof. exact or_returns_a_branch. Qed.
Print Assumptions C07_returns_a_branch.

(* Exclusive: for ANY two parsers a and b, if the line holds an item that only consumers of `a`
   accept and an item that only consumers of `b` accept, the choice cannot yield a value. *)
Theorem C07_exclusive :
  forall env a b inf s i j ti tj,
    pkinds_ok (fun k => accepts k tj = false) a ->
    pkinds_ok (fun k => accepts k ti = false) b ->
    lenwf s -> full_scope s ->
    nth_error (items s) i = Some ti -> live s i ->
    nth_error (items s) j = Some tj -> live s j ->
    forall v s', run_sub env (Options (POr a b) inf) s <> (SOk v, s').
Proof. exact or_exclusive. Qed.
Print Assumptions C07_exclusive.

(* "wrapped in many / some the collected values follow command-line order" -- one round of the repetition: a choice
   between two required flags (different names, no environment variables) whose leftmost available occurrences stand
   at i and j takes the item at min i j and yields the value of the flag that owns it; the other fork's item stays
   available, marked as a conflict, for the next round.  The rounds therefore consume the occurrences from left to
   right whichever flag they belong to (the whole list: C07_repeated_choice_in_line_order below).  PARTIAL: alternatives
   that are not single flags are decided by the oracle (collected values vs command-line order) *)
Theorem C07_repeated_choice_takes_leftmost_partial :
  forall env na va nb vb s i j x y,
    n_env na = [] -> n_env nb = [] ->
    find_item s (fun _ a => matches_arg na false a) = Some i ->
    find_item s (fun _ a => matches_arg nb false a) = Some j ->
    i <> j -> ist_at s i = Some x -> ist_at s j = Some y -> 1 <= remaining s ->
    or_body (eval_flag env na va None) (eval_flag env nb vb None) s =
    if Nat.ltb i j
    then (ROk va, save_conflicts (sremove (KFlag na) i s) (sremove (KFlag nb) j s) i)
    else (ROk vb, save_conflicts (sremove (KFlag nb) j s) (sremove (KFlag na) i s) j).
Proof. exact choice_takes_leftmost. Qed.
Print Assumptions C07_repeated_choice_takes_leftmost_partial.

(* ... and the whole list: `many` over a choice between two required flags with different names (no environment
   variables) returns a list whose values, read from the head, were taken from STRICTLY INCREASING positions of the line
   -- every one an available in-scope occurrence of one of the two names -- each value being the one of the flag whose
   consumer took that position; the consumption log records exactly these rounds (ManyOrderList.v).  For alternatives
   that are not single flags the order is decided by the oracle. *)
Theorem C07_repeated_choice_in_line_order :
  forall env na nb va vb,
    n_env na = [] -> n_env nb = [] -> flag_item na <> None -> flag_item nb <> None ->
    (forall a, matches_arg na false a = true -> matches_arg nb false a = false) ->
    forall s vs s',
      G s -> many_body (ev env na nb va vb) false s = (ROk (VList vs), s') ->
      exists es, log s' = rev es ++ log s /\ Forall2 (own na nb va vb) vs es /\
                 StronglySorted (fun a b => fst a < fst b) es /\ Forall (fun e => cand na nb s (fst e)) es.
Proof. exact many_choice_in_line_order. Qed.
Print Assumptions C07_repeated_choice_in_line_order.

Example C07_example :
  let a := PFlag (mkNamed [97%N] [] [] None) (VNum 1) None in
  let b := PFlag (mkNamed [98%N] [] [] None) (VNum 2) None in
  (exists m, run_inner (mkFeat true true false) (fun _ => None) (Options (POr a b) default_info) None
               [[45;97]%N; [45;98]%N] = OutStderr m) /\
  run_inner (mkFeat true true false) (fun _ => None) (Options (PMany (POr a b) false) default_info) None
            [[45;98]%N; [45;97]%N; [45;98]%N] = OutOk (VList [VNum 2; VNum 1; VNum 2]).
Proof. split; [eexists|]; vm_compute; reflexivity. Qed.
