(* C15 -- Completion scripts for real shells are well-formed and inert.
   Property theorems only; proofs live in Lemmas/.  Model/Shell.v transcribes the four renderers
   (/repo with fixes 1890898, 1b0b9c4, 23fb235); it is tied to the code on every run by rendering the same
   candidate lists, shell operations and typed words with the library's own renderers (hook). *)
From Coq Require Import List NArith.
From BpafModel Require Import Shell.
From BpafLemmas Require Import ShellLaws.
Import ListNotations.

(* Quote round-trip.  `unquote` is a lexer for ONE shell word consisting of data only: it fails on
   any unquoted, unescaped character.  For EVERY string s -- quotes, `$()`, `;`, spaces, newlines,
   non-ASCII -- the escaped form is read back as exactly s: the shell treats it as data. *)
Theorem C15_quote_roundtrip : forall s, unquote (quote s) = Some s.
Proof. exact quote_roundtrip. Qed.
Print Assumptions C15_quote_roundtrip.

Theorem C15_quote_injective : forall a b, quote a = quote b -> a = b.
Proof. exact quote_injective. Qed.
Print Assumptions C15_quote_injective.

(* every directive of the zsh and bash scripts ends with a newline: no directive is glued to the
   next one *)
Theorem C15_zsh_lines : forall items ops l, nl_terminated (render_zsh items ops l).
Proof. exact render_zsh_lines. Qed.
Theorem C15_bash_lines : forall items ops l, nl_terminated (render_bash items ops l).
Proof. exact render_bash_lines. Qed.
Print Assumptions C15_zsh_lines.
Print Assumptions C15_bash_lines.

(* every requested shell completer is rendered, whatever the number of candidates *)
Theorem C15_zsh_keeps_completers :
  forall items ops l, (is_nil items && is_nil ops = false) ->
    exists rest, render_zsh items ops l = flat_map zsh_op ops ++ rest.
Proof. exact render_zsh_keeps_ops. Qed.
Theorem C15_bash_keeps_completers :
  forall items ops l, (is_nil items && is_nil ops = false) ->
    exists rest, render_bash items ops l = flat_map bash_op ops ++ rest.
Proof. exact render_bash_keeps_ops. Qed.
Print Assumptions C15_zsh_keeps_completers.
Print Assumptions C15_bash_keeps_completers.

(* with nothing to offer, the typed word is echoed back QUOTED *)
Theorem C15_zsh_typed_word_quoted : forall l, render_zsh [] [] l = line (s_compadd_dd ++ quote l).
Proof. exact render_zsh_nothing. Qed.
Theorem C15_bash_typed_word_quoted :
  forall l, render_bash [] [] l = line (s_compreply_open ++ quote l ++ [rparen]).
Proof. exact render_bash_nothing. Qed.
Print Assumptions C15_zsh_typed_word_quoted.
Print Assumptions C15_bash_typed_word_quoted.

Example C15_example :
  quote [36;40;120;41;39;59]%N = [39;36;40;120;41;39;92;39;39;59;39]%N /\
  unquote [39;36;40;120;41;39;92;39;39;59;39]%N = Some [36;40;120;41;39;59]%N /\
  unquote [36;40;120;41]%N = None.
Proof. repeat split; vm_compute; reflexivity. Qed.
