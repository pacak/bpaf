(* C04 -- Running a parser is total, terminating and pure.
   Property theorems only; proofs live in Lemmas/ (totality: LoopLaws, Exact, TotalLaws, AdjTotal, TotalAll over
   Reach; the flat fragment: ConvTotal; documents: BalLaws, ConsoleLaws; error rendering: MsgOk, MessageLaws,
   DamerauSafe).
   PARTIAL.  What Rocq decides here: for EVERY definition `oko` accepts -- every combinator of the model
   arbitrarily nested: flags, arguments, positionals, `any`, subcommands (adjacent or not), construct!,
   alternatives, optional/many/some/collect/count/last, fallback, guard, parse, map, hide, usage,
   group_help, pure, fail, boxed, and ADJACENT GROUPS whose members keep their scope (everything but subcommands
   inside the group; groups nested in groups are covered) and which start with an item -- every
   vector and every environment, a run ends in a value, a help/version document or an error message: no
   panic outcome, no fuel exhaustion (C04_total); the retry loop of ParseAdjacent::eval terminates and its
   panic sites (scope arithmetic, `before - remaining`) are unreachable (C04_adjacent_group_total);
   documentation generation and console rendering return (C04_documentation_returns,
   C04_console_rendering_returns).
   Error rendering returns for EVERY definition (C04_error_rendering_returns: the evaluator reports only
   messages whose positions are items of the line; Message::render then has a document).
   Not theorems: (a) adjacent groups with subcommands as members, or
   without a first item (that one panics; check_invariants reports it since fix 1225acf unless the group is hidden:
   known finding) -- their FUEL/panic outcomes are explicit in the
   model and compared with the implementation, (b) the panic sites of completion
   (compared per run), (c) purity -- Gallina functions are pure by construction; the implementation is
   re-run on the same OptionParser and after other operations (driver modes `twice`, `history`). *)
From Coq Require Import List Arith.
From BpafModel Require Import Conv Wf Docs Console Message.
From Coq Require Import String.
From BpafLemmas Require Import Tac Reach LoopLaws TotalLaws AdjLaws AdjTotal TotalAll AbsSim ConvRefine ConvTotal HtmlLaws BalLaws ConsoleLaws MessageLaws MsgOk DamerauSafe.
Import ListNotations.

(* `remaining <= number of items` (and the item-state vector has the length of the item list)
   holds initially and is kept by the evaluation of EVERY parser from every state; the item list
   itself is never changed *)
Theorem C04_ledger_bounded_initially :
  forall short_flags short_args name argv, bounded (fst (construct short_flags short_args name argv)).
Proof. exact construct_bounded. Qed.
Print Assumptions C04_ledger_bounded_initially.

Theorem C04_ledger_stays_bounded :
  forall env p s, bounded s -> bounded (snd (eval env p s)) /\ items (snd (eval env p s)) = items s.
Proof. exact eval_keeps. Qed.
Print Assumptions C04_ledger_stays_bounded.

(* many / collect, some, count, last: with the fuel the model gives them (number of items + 2)
   the loop itself never runs out -- if the repetition reports RFuel, its inner parser did.
   For every inner evaluator that keeps the ledger bounded (every `eval env q` does). *)
Theorem C04_many_terminates_partial :
  forall ev catch s, keeps ev -> bounded s ->
  fst (many_body ev catch s) = RFuel -> exists s', fst (ev s') = RFuel.
Proof. exact many_body_fuel. Qed.
Print Assumptions C04_many_terminates_partial.

Theorem C04_some_terminates_partial :
  forall ev msg catch s, keeps ev -> bounded s ->
  fst (some_body ev msg catch s) = RFuel -> exists s', fst (ev s') = RFuel.
Proof. exact some_body_fuel. Qed.
Print Assumptions C04_some_terminates_partial.

Theorem C04_count_terminates_partial :
  forall ev s, keeps ev -> bounded s ->
  fst (count_body ev s) = RFuel -> exists s', fst (ev s') = RFuel.
Proof. exact count_body_fuel. Qed.
Print Assumptions C04_count_terminates_partial.

Theorem C04_last_terminates_partial :
  forall ev s, keeps ev -> bounded s ->
  fst (last_body ev s) = RFuel -> exists s', fst (ev s') = RFuel.
Proof. exact last_body_fuel. Qed.
Print Assumptions C04_last_terminates_partial.

(* The whole flat fragment -- flags, arguments, positionals, construct!, optional / many / some /
   count / last / fallback, arbitrarily nested -- is total on full-scope states: a value or an
   error, never a panic outcome, never fuel exhaustion (through the token-list interpreter of
   AbsSim.v, whose loops are shown never to exhaust the fuel the evaluator gives them). *)
Theorem C04_flat_fragment_total :
  forall env n p s l, flatp p = true -> Sim n s l ->
  (exists v, fst (eval env p s) = ROk v) \/ (exists e, fst (eval env p s) = RErr e).
Proof. exact flat_eval_total. Qed.
Print Assumptions C04_flat_fragment_total.

(* ... and so is running a conventional flat level on ANY argument vector *)
Theorem C04_flat_level_total :
  forall feat env items tail argv, flat_ok items tail ->
  normal_outcome (run_inner feat env (compile_options (Level items tail)) None argv).
Proof. exact flat_run_total. Qed.
Print Assumptions C04_flat_level_total.

(* EVERY definition `oko` accepts (decidable, evaluated on every generated definition: adjacent groups
   have scope-keeping members and a first item; named items have a name or a variable;
   option levels pass check_invariants), on EVERY argument vector and environment: the outcome is a
   value, a document or an error message *)
Theorem C04_total :
  forall feat env o name argv, oko o = true ->
  normal_outcome (run_inner feat env o name argv).
Proof. exact run_total. Qed.
Print Assumptions C04_total.

(* the same for the evaluation of any sub-parser from any well-formed state (ledger bounded, scope
   inside the ledger, `remaining` exact): states only move by legal steps, which keep them well-formed *)
Theorem C04_eval_total :
  forall env p s, okp p = true -> G s ->
  nf (fst (eval env p s)) /\ G (snd (eval env p s)).
Proof.
  intros env p s Hp Hg. split; [exact (proj1 (eval_total_all env) p Hp s Hg)|exact (proj1 (eval_keepsG env p s Hg))].
Qed.
Print Assumptions C04_eval_total.

(* the retry loop of an adjacent group: for every member parser that keeps its scope and consumes only
   inside it, moves the ledger by legal steps and is itself total, and a group that starts with an item,
   evaluation from every well-formed state ends in a value or an error -- the loop ends within the
   fuel the model gives it (after the first retry the right end of the window holds an available item
   outside the window, so later ends can only shrink) and no panic site is reached *)
Theorem C04_adjacent_group_total :
  forall ev, ev_inscope ev -> ev_reach (fun _ => True) ev -> total ev ->
  forall fi, fi <> None -> total (eval_adjacent ev fi).
Proof. exact adjacent_total. Qed.
Print Assumptions C04_adjacent_group_total.

(* `remaining` is exactly the number of available items inside the scope, initially and after every
   evaluation: the `before - remaining` of the retry loop never underflows because of it *)
Theorem C04_remaining_exact :
  forall env p s, G s -> G (snd (eval env p s)).
Proof. intros env p s Hg. exact (proj1 (eval_keepsG env p s Hg)). Qed.
Print Assumptions C04_remaining_exact.

(* documentation generation returns, for EVERY definition (adjacent groups included) whose own documents
   are what the Doc API can build (`odok`): section extraction never runs out of fuel, the group loop of
   the item writer terminates, and neither renderer meets a block it answers with `todo!()`.  The same for
   the document of --help (C12_help_document_total_balanced); its console rendering is tied per run *)
Theorem C04_documentation_returns :
  forall env app o full, odok o ->
  (exists d html, collect_html env app (ometa_of o) (oinfo_of o) = Some d /\ render_html full d = Some html) /\
  (exists d man, manpage_doc env app (ometa_of o) (oinfo_of o) = Some d /\ render_roff (manpage_th app) d = Some man).
Proof. intros env app o full Ho. split; [exact (render_html_returns env app o full Ho)|exact (render_manpage_returns env app o Ho)]. Qed.
Print Assumptions C04_documentation_returns.

(* console rendering (help, version and error documents) returns for EVERY document, form and width
   (/repo with fix efdd257: margins wider than the padding constant are padded in pieces) *)
Theorem C04_console_rendering_returns :
  forall docgen full mw d, render_console docgen full mw d <> None.
Proof. exact render_console_returns. Qed.
Print Assumptions C04_console_rendering_returns.

(* error rendering (Message::render, Model/Message.v) indexes the item list by the positions a message
   records.  For EVERY parser of the model (no well-formedness premise: any members of adjacent groups, any
   nesting) an error handed out by the evaluation from a well-formed state records only positions of the line:
   the argument name without a value is an item, the scopes of missing items are inside the ledger with the
   position not beyond their end (State::set_scope would panic otherwise)  (MsgOk.v: mutual induction over the
   parser) *)
Theorem C04_reported_messages_name_positions :
  forall env p s, GC s -> eok (length (items s)) (fst (eval env p s)).
Proof. exact (fun env => proj1 (eval_okmsg_all env)). Qed.
Print Assumptions C04_reported_messages_name_positions.

(* ... the marks left by the choice between alternatives name positions of the line in every state an
   evaluation can reach (the winner recorded by State::save_conflicts comes from State::pick_winner) *)
Theorem C04_conflict_marks_name_positions :
  forall K s s', reach K s s' -> cw_ok s -> cw_ok s'.
Proof. exact reach_cw. Qed.
Print Assumptions C04_conflict_marks_name_positions.

(* ... so Message::render returns a document for every such message: no index out of range, no unwrap of None,
   no panicking State::set_scope in the summary of missing items, whatever conflict / only-once / `did you mean`
   rewriting applies *)
Theorem C04_message_rendering_returns :
  forall msg s m,
    G s -> cw_ok s -> mok (length (items s)) msg ->
    match msg with MsgParseFailure _ => False | _ => True end ->
    render_message msg s m <> None.
Proof. exact render_message_returns. Qed.
Print Assumptions C04_message_rendering_returns.

(* ... hence for EVERY definition, every vector and environment: the failure a run ends with -- whichever command
   level reported it, the tokenizer's ambiguity message included -- carries its document (FStderr's second field is
   what Message::render built at that level; None would be a panic of the rendering); the same for the run of any
   command level from any well-formed state *)
Theorem C04_error_rendering_returns :
  forall env feat o name argv m, fst (run_inner_state feat env o name argv) <> SFail (FStderr m None).
Proof. exact run_inner_has_document. Qed.
Print Assumptions C04_error_rendering_returns.

Theorem C04_level_error_rendering_returns :
  forall env o s m, GC s -> fst (run_sub env o s) <> SFail (FStderr m None).
Proof. exact run_sub_has_document. Qed.
Print Assumptions C04_level_error_rendering_returns.

(* ... and the one place where the transcription uses total accessors for `d[ix(i, j)]` -- the edit distance behind the
   `did you mean` suggestions -- never leaves its (a_len + 1) * (b_len + 1) matrix: written with checked accessors
   (None = the index panic) it returns, and gives what the transcription gives, for all strings *)
Theorem C04_suggestion_distance_in_bounds :
  forall a b, damerau_checked a b = Some (damerau_levenshtein a b).
Proof. exact damerau_in_bounds. Qed.
Print Assumptions C04_suggestion_distance_in_bounds.

(* non-vacuity: `-a -b` with exclusive alternatives: the conflict message is rendered *)
Example C04_example_error_rendered :
  let p := POr (PFlag (mkNamed [97%N] [] [] None) VUnit None) (PFlag (mkNamed [98%N] [] [] None) VUnit None) in
  match run_inner_state (mkFeat true true false) (fun _ => None) (Options p default_info) None [[45;97]%N; [45;98]%N] with
  | (SFail (FStderr m (Some d)), s') =>
    option_map utf8_encode (render_doc_text true d) = Some (bs "`-b` cannot be used at the same time as `-a`"%string)
  | _ => False
  end.
Proof. vm_compute. reflexivity. Qed.

(* the premises are met: a definition with a subcommand, an alternative, repetition and a guard *)
Example C04_example_oko :
  oko (Options (PCon (PCons (PMany (PArg (mkNamed [110%N] [] [] None) [78%N] TyString false) false)
                      (PCons (POr (PFlag (mkNamed [97%N] [] [] None) (VBool true) None)
                                  (PCmd [99%N] [] [] None false
                                        (Options (PGuard (PPos [80%N] TyString Unrestricted None) (fun _ => true) []) default_info)))
                             PNil))) default_info) = true.
Proof. vm_compute. reflexivity. Qed.

(* ... and a group nested in a group: `--rect --w W [--origin X Y]` *)
Example C04_example_oko_nested_group :
  oko (Options (PCon (PCons (PAdj (PCons (PFlag (mkNamed [] [[114]%N] [] None) VUnit None)
                                  (PCons (PArg (mkNamed [] [[119]%N] [] None) [87%N] TyU32 false)
                                  (PCons (POptional (PAdj (PCons (PFlag (mkNamed [] [[111]%N] [] None) VUnit None)
                                                          (PCons (PPos [88%N] TyU32 Unrestricted None)
                                                          (PCons (PPos [89%N] TyU32 Unrestricted None) PNil)))) false) PNil))))
                      (PCons (PFlag (mkNamed [118%N] [] [] None) (VBool true) (Some (VBool false))) PNil))) default_info) = true.
Proof. vm_compute. reflexivity. Qed.

(* adjacent subcommands: the window handed to the subcommand and the one retry on a narrower window stay
   inside the ledger; the subcommand's own parser is total by induction *)
Theorem C04_adjacent_command_total :
  forall name aliases shorts help m_sub i_sub run,
  keepsGr run -> totalr run -> total (cmd_body name aliases shorts help true m_sub i_sub run).
Proof. exact cmd_adjacent_total. Qed.
Print Assumptions C04_adjacent_command_total.

(* ... and one with a repeated adjacent group `--point X Y` next to a switch *)
Example C04_example_oko_adjacent :
  oko (Options (PCon (PCons (PFlag (mkNamed [99%N] [] [] None) (VBool true) (Some (VBool false)))
                      (PCons (PMany (PAdj (PCons (PFlag (mkNamed [] [[112]%N] [] None) VUnit None)
                                          (PCons (PPos [88%N] TyString Unrestricted None)
                                          (PCons (PPos [89%N] TyString Unrestricted None) PNil)))) false) PNil)))
               default_info) = true.
Proof. vm_compute. reflexivity. Qed.
