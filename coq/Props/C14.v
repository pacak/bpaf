(* C14 -- Dynamic completion offers real, visible, applicable candidates.
   Property theorems only; proofs live in Lemmas/.  PARTIAL.  Completion has two stages: the parsers
   push hints while they run on the line (src/params.rs, src/structs.rs), then Complete::complete
   (src/complete_gen.rs) turns the collected hints into candidates.  The SECOND stage is modelled
   (Model/Complete.v, tied to the code through a hook on explicit hint lists) and proved sound and
   complete with respect to the hints: only hints of the deepest command level entered become
   candidates; after `--` only positional ones; while an argument's value is typed no flag /
   argument / command name is offered; names pass the name filters (a typed `--prefix`, an exactly
   typed short name, a command prefix) and are offered in their preferred spelling; completer
   values carry the typed `-s=` / `--long=` prefix; otherwise every matching hint is offered.
   The FIRST stage is modelled too (Model/CompEval.v, the evaluator of a build with `autocomplete`; its
   completion TEXT is compared with the library byte for byte): for every parser definition a request
   never yields a value or an error message, the request is kept, and every name among the hints is the
   name of a visible item (CompNever.v, CompVisible.v over CompPres.v).  That the hints pushed are
   exactly the visible, not yet given names of the active path is decided by the oracle on the
   implementation (computed from the definition's AST). *)
From Coq Require Import List NArith.
From BpafModel Require Import Shell Complete Message CompEval.
From BpafLemmas Require Import ShellLaws CompleteLaws CompInert CompAlways CompNever CompVisible.
Import ListNotations.

(* a flag/argument name is offered only if the typed text is empty or `-`, or is exactly its short
   spelling, or is `--` followed by a prefix of its (first) long name; what is offered is the
   preferred spelling (the long name when there is one) *)
Theorem C14_arg_filter_sound_partial :
  forall arg short long n,
    arg_matches arg short long = Some n ->
    n = preferred_name short long /\
    (arg = [] \/ arg = [dash] \/
     (exists c, short = Some c /\ arg = [dash; c]) \/
     (exists l rest, long = Some l /\ arg = dash :: dash :: rest /\ starts_with rest l = true)).
Proof. exact arg_matches_sound. Qed.
Print Assumptions C14_arg_filter_sound_partial.

(* a command name is offered only if the typed text is a prefix of it or is its short alias *)
Theorem C14_cmd_filter_sound_partial :
  forall arg name short,
    cmd_matches arg name short = true ->
    starts_with arg name = true \/ exists c, short = Some c /\ arg = [c].
Proof. exact cmd_matches_sound. Qed.
Print Assumptions C14_cmd_filter_sound_partial.

(* every candidate stems from a collected hint of the deepest command level entered (after `--`: a
   positional one), through `comp_item` *)
Theorem C14_candidates_from_deepest_hints_partial :
  forall cs arg po nm px i,
    In i (fst (complete cs arg po nm px)) ->
    exists c, In c cs /\ comp_depth c = max_depth cs /\ (po = true -> is_pos c = true) /\
              comp_item arg po px c = Some i.
Proof. exact complete_sound. Qed.
Print Assumptions C14_candidates_from_deepest_hints_partial.

Theorem C14_deepest_is_deepest : forall cs c, In c cs -> comp_depth c <= max_depth cs.
Proof. exact max_depth_ge. Qed.
Print Assumptions C14_deepest_is_deepest.

(* the shape of a candidate by the kind of its hint: names only through the name filters (with the
   two theorems above: the typed text is a prefix / the exact short spelling), in the preferred
   spelling; an argument shows `name=METAVAR`; a completer's value carries the typed `-s=` /
   `--long=`; a metavariable placeholder replaces nothing; group and help are the hint's *)
Theorem C14_candidate_shape_partial :
  forall arg po px c i,
    comp_item arg po px c = Some i ->
    match c with
    | CoFlag _ s l => arg_matches arg s l = Some (sc_subst i) /\ sc_pretty i = sc_subst i
    | CoArgument _ s l mv => arg_matches arg s l = Some (sc_subst i) /\ sc_pretty i = sc_subst i ++ eq_sign :: mv
    | CoCommand _ name s => cmd_matches arg name s = true /\ sc_subst i = name /\ sc_pretty i = name
    | CoValue _ body _ =>
      sc_pretty i = body /\
      sc_subst i = match px with PxNA => body | PxShort s => dash :: s :: eq_sign :: body
                            | PxLong l => dash :: dash :: l ++ eq_sign :: body end
    | CoMeta _ meta _ => sc_subst i = [] /\ sc_pretty i = meta
    | CoShell _ _ _ => False
    end /\ sc_group i = ce_group (comp_extra c) /\ sc_help i = ce_help (comp_extra c).
Proof. exact comp_item_shape. Qed.
Print Assumptions C14_candidate_shape_partial.

(* while the value of an argument is being typed, no flag, argument or command name is offered *)
Theorem C14_value_mode_offers_no_names_partial :
  forall cs arg po nm px i,
    (exists c, In c cs /\ passes (max_depth cs) po px c = true /\ only_value c = true) ->
    In i (fst (complete cs arg po nm px)) ->
    exists c, In c cs /\ only_value c = true /\ comp_item arg po px c = Some i.
Proof. exact complete_value_mode. Qed.
Print Assumptions C14_value_mode_offers_no_names_partial.

(* otherwise every hint of the deepest level that matches what was typed is offered *)
Theorem C14_matching_hints_offered_partial :
  forall cs arg po nm px c i,
    (forall c', In c' cs -> passes (max_depth cs) po px c' = true -> only_value c' = false) ->
    In c cs -> passes (max_depth cs) po px c = true -> comp_item arg po px c = Some i ->
    In i (fst (complete cs arg po nm px)).
Proof. exact complete_names_complete. Qed.
Print Assumptions C14_matching_hints_offered_partial.

(* while the value of `--name=val` / `-n=val` is being typed every candidate completes an argument's value:
   no name of the level, no positional hint, no `--` (/repo with fix b840250: the
   remaining hints are not matched against the value part, so no `--file=--` is offered) *)
Theorem C14_prefix_only_values :
  forall cs arg po nm px i,
    px <> PxNA -> In i (fst (complete cs arg po nm px)) ->
    exists c, In c cs /\ only_value c = true /\ comp_item arg po px c = Some i.
Proof. exact complete_prefix_only_values. Qed.
Print Assumptions C14_prefix_only_values.

Example C14_example :
  arg_matches [45;45;118]%N (Some 118%N) (Some [118;101;114;98]%N) = Some [45;45;118;101;114;98]%N /\
  arg_matches [45;45;120]%N (Some 118%N) (Some [118;101;114;98]%N) = None /\
  cmd_matches [98]%N [98;117;105;108;100]%N None = true.
Proof. repeat split; vm_compute; reflexivity. Qed.

(* the second stage at work: hints of two levels, `--al` typed: only the deeper level's matching
   names; with an argument's value being typed, only the value *)
Example C14_example_complete :
  let e d := mkExtra d None None in
  fst (complete [CoFlag (e 0) None (Some [97;108;108]%N); CoFlag (e 1) (Some 97%N) (Some [97;108;112;104;97]%N);
                 CoCommand (e 1) [97;108]%N None; CoFlag (e 1) None (Some [98]%N)]
                [45;45;97;108]%N false true PxNA)
    = [mkShow [45;45;97;108;112;104;97]%N [45;45;97;108;112;104;97]%N None None] /\
  fst (complete [CoFlag (e 1) (Some 97%N) None; CoValue (e 1) [120]%N true; CoMeta (e 1) [70]%N true]
                [] false false (PxLong [111]%N))
    = [mkShow [45;45;111;61;120]%N [120]%N None None; mkShow [] [70]%N None None].
Proof. split; vm_compute; reflexivity. Qed.

(* ------------------------------------------------------------------ the FIRST stage (Model/CompEval.v) *)
(* Model/CompEval.v transcribes the hint bookkeeping of every parser (the evaluator of a build with `autocomplete`) and
   check_complete; its completion text is compared byte for byte with the library's on every generated case. *)

(* A command level that is left with the hints in hand -- its parser returned a value or an ordinary failure, no final
   failure of a subcommand, no usage fallback on an empty scope -- answers with completion output as soon as the line
   holds an item with valid UTF-8 text: never with that value, a help screen or an error message. *)
Theorem C14_level_answers_with_completion_partial :
  forall env inf m s r s1 c,
    early inf s r = false -> lit_items s1 <> [] -> rev_ok (cs_rev c) ->
    exists t, c_run_sub_body env inf m (s, Some c) (r, (s1, Some c)) = (SFail (FCompletion t), (s1, Some c)).
Proof. intros env inf m s r s1 c. apply level_answers_with_completion. Qed.
Print Assumptions C14_level_answers_with_completion_partial.

(* The first clause of the property, for EVERY parser definition of the model (every combinator arbitrarily nested,
   subcommands adjacent or not, adjacent groups, completers): when completion is requested -- Args::set_comp or a marker
   on the line, with one of the output revisions bpaf knows (0, 1, 7, 8, 9) -- and the line holds an item with valid
   UTF-8 text, the outcome of run_inner is NEVER a parsed value and NEVER an error message.  (What is left besides
   completion output: stdout -- the usage screen of a `fallback_to_usage` level entered with nothing in its scope --
   and the model's explicit panic / fuel outcomes, which C04 speaks about.)  By mutual induction over the parser
   (Lemmas/CompNever.v): the completion state stays switched on with its revision, the items of the line never change,
   every final failure a subcommand hands up is completion output or stdout. *)
Theorem C14_request_never_value_or_error :
  forall feat env o name argv rv0,
    let x := fst (c_initial_state o name argv rv0) in
    forall c, snd x = Some c -> rev_ok (cs_rev c) -> lit_items (fst x) <> [] ->
    match c_run_inner feat env o name argv rv0 with
    | OutOk _ | OutStderr _ => False
    | _ => True
    end.
Proof. exact request_never_value_or_error. Qed.
Print Assumptions C14_request_never_value_or_error.

(* the invariant behind it, for every parser and every state with the request switched on *)
Theorem C14_request_kept_by_every_parser :
  forall rv its, rev_ok rv -> (forall s, items s = its -> lit_items s <> []) ->
  forall env docgen p x, xinv rv its x -> xinv rv its (snd (ceval env docgen p x)) /\ rfin (fst (ceval env docgen p x)).
Proof. intros rv its Hr Hl env docgen p. exact (proj1 (ceval_good_all rv its Hr Hl env docgen) p). Qed.
Print Assumptions C14_request_kept_by_every_parser.

(* Hidden items are never offered, for EVERY parser definition: every flag / argument / command NAME among the hints a
   run collects is the name of a VISIBLE item of the definition (`vis_names` / `vis_cmds` skip everything under hide()),
   wherever the hidden part stands -- under any wrapper, in an alternative, a group or a subcommand; the plumbing
   (stash, swap, titles, completer values, shell completers, the keep_a / keep_b rule of alternatives, the clones of
   adjacent groups) never invents a name.  Mutual induction over the parser (Lemmas/CompVisible.v).  Together with the
   second stage (C14_candidates_from_deepest_hints_partial, C14_candidate_shape_partial: every candidate stems from a hint) no candidate carries a name
   that only a hidden item has. *)
Theorem C14_hints_name_visible_items_only :
  forall env docgen o s c,
    kall (ovis_names o) (ovis_cmds o)
         (snd (snd (crun_sub env docgen o (s, Some (mkCst [] (cs_rev c) (cs_nopos c)))))).
Proof. intros env docgen o s c. apply run_hints_name_visible_items. Qed.
Print Assumptions C14_hints_name_visible_items_only.

Theorem C14_every_parser_pushes_visible_names_only :
  forall env docgen p Vn Vc,
    incl (vis_names p) Vn -> incl (vis_cmds p) Vc ->
    forall x, kall Vn Vc (snd x) -> kall Vn Vc (snd (snd (ceval env docgen p x))).
Proof. intros env docgen p Vn Vc Hn Hc. exact (proj1 (ceval_visible_all env docgen) p Vn Vc Hn Hc). Qed.
Print Assumptions C14_every_parser_pushes_visible_names_only.

(* both stages together: whatever candidates Complete::complete computes from the hints the parser of a command level
   collected, each stems (through comp_item: name filters, preferred spelling) from a hint that names a visible item of
   the definition, or is a completer's value, a placeholder or a shell completer *)
Theorem C14_candidates_stem_from_visible_items :
  forall env docgen p s c arg po nm px i,
    In i (fst (complete (kcomps (snd (snd (ceval env docgen p (s, Some (mkCst [] (cs_rev c) (cs_nopos c))))))) arg po nm px)) ->
    exists h, name_ok (vis_names p) (vis_cmds p) h /\ comp_item arg po px h = Some i.
Proof. intros env docgen p s c. apply level_candidates_from_visible_items. Qed.
Print Assumptions C14_candidates_stem_from_visible_items.

(* non-vacuity: a visible switch --alpha next to a hidden switch --beta: only --alpha is a visible name *)
Example C14_example_visible_names :
  vis_names (XCon (XCons (XFlag (mkNamed [] [[97;108;112;104;97]%N] [] None) (VBool true) (Some (VBool false)))
                  (XCons (XHide (XFlag (mkNamed [] [[98;101;116;97]%N] [] None) (VBool true) (Some (VBool false)))) XNil)))
  = [(None, Some [97;108;112;104;97]%N)].
Proof. reflexivity. Qed.

(* hidden items are never offered: whatever a parser under hide() pushed is dropped, the hints after it are the hints
   collected before it *)
Theorem C14_hidden_parser_offers_nothing :
  forall cev s c,
    snd (snd (c_hide_body cev (s, Some c))) = None \/ kcomps (snd (snd (c_hide_body cev (s, Some c)))) = cs_comps c.
Proof. exact hide_drops_hints. Qed.
Print Assumptions C14_hidden_parser_offers_nothing.

(* the name of a subcommand typed as the last item: the command is not entered (names that belong only to it cannot be
   offered), the one hint is the command name itself *)
Theorem C14_command_name_typed_last :
  forall docgen name aliases shorts help adjacent m i run s c s1,
    take_cmd_any ((name :: aliases) ++ map utf8_encode_char shorts) s = (true, s1) ->
    touching_last s1 (Some c) = true ->
    c_cmd_body docgen name aliases shorts help adjacent m i run (s, Some c) =
    (RErr (MsgMissing []),
     (s1, Some (mkCst [CoCommand (mkExtra (depth s1) None (help_completion docgen help)) (chars_of name) (hd_error shorts)]
                      (cs_rev c) (cs_nopos c)))).
Proof. exact cmd_name_last. Qed.
Print Assumptions C14_command_name_typed_last.

(* names that belong only to commands not entered are never offered: a subcommand whose name is not the next item
   contributes its own name as a hint and nothing else *)
Theorem C14_command_not_entered_offers_its_name_only :
  forall docgen name aliases shorts help adjacent m i run s k s1,
    take_cmd_any ((name :: aliases) ++ map utf8_encode_char shorts) s = (false, s1) ->
    snd (snd (c_cmd_body docgen name aliases shorts help adjacent m i run (s, k))) =
    kpush (CoCommand (mkExtra (depth s1) None (help_completion docgen help)) (chars_of name) (hd_error shorts)) k.
Proof. exact cmd_not_entered_hints. Qed.
Print Assumptions C14_command_not_entered_offers_its_name_only.

(* group_help: earlier hints stay, the inner parser's hints follow under the group's title *)
Theorem C14_group_title_on_inner_hints :
  forall docgen cev d s c r s' c',
    cev (s, Some (mkCst [] (cs_rev c) (cs_nopos c))) = (r, (s', Some c')) ->
    c_group_help_body docgen cev d (s, Some c) =
    (r, (s', Some (mkCst (cs_comps c ++ match to_completion docgen d with
                                        | Some g => map (set_group g) (cs_comps c')
                                        | None => cs_comps c'
                                        end) (cs_rev c') (cs_nopos c')))).
Proof. exact group_help_titles. Qed.
Print Assumptions C14_group_title_on_inner_hints.

(* without a request the completers and the bookkeeping change nothing (see C20) *)
Theorem C14_no_request_no_completion :
  forall feat env o name argv,
    (forall w, In w argv -> marker_rev w = None) ->
    c_run_inner feat env o name argv None = run_inner feat env (erase_o o) name argv.
Proof. exact c_run_inner_no_request. Qed.
Print Assumptions C14_no_request_no_completion.

(* non-vacuity: `-` typed after nothing, a switch -v with help: the outcome is completion output naming -v *)
Example C14_example_first_stage :
  exists t, c_run_inner (mkFeat true true false) (fun _ => None)
              (XOptions (XFlag (mkNamed [118%N] [] [] None) (VBool true) (Some (VBool false))) default_info)
              None [[45%N]] (Some 0) = OutCompletion t.
Proof. vm_compute. eexists. reflexivity. Qed.

(* non-vacuity of C14_request_never_value_or_error: its premises hold for `--al` typed after a positional *)
Example C14_example_premises :
  let o := XOptions (XCon (XCons (XPos [70%N] TyString Unrestricted None)
                          (XCons (XFlag (mkNamed [] [[97;108;112;104;97]%N] [] None) (VBool true) (Some (VBool false))) XNil)))
                    default_info in
  let x := fst (c_initial_state o None [[120%N]; [45;45;97;108]%N] (Some 0)) in
  (exists c, snd x = Some c /\ rev_ok (cs_rev c)) /\ lit_items (fst x) <> [].
Proof. vm_compute. split; [eexists; split; [reflexivity|left; reflexivity]|discriminate]. Qed.
