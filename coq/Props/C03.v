(* C03 -- Order of named options is irrelevant.
   Property theorems only; proofs live in Lemmas/.
   FULL STATEMENT (kept visible; not proved as a single theorem -- decided by the metamorphic oracle
   and the differential run, see DESIGN.md 4/C03):
     for every `any`-free, adjacent-free parser p and vectors argv, argv' related by a permutation
     of whole named occurrences that keeps the order of occurrences feeding one field and of the
     positionals and crosses neither `--` nor a command name,
       run_inner p argv  and  run_inner p argv'  agree in class and value.
   What is proved: the mechanisms the statement rests on, (1)-(4) below, and for the conventional fragment the
   statement itself (C03_order_irrelevant_flat, C03_outcome_depends_on_reading_tree). *)
From BpafLemmas Require Import Tac Find TokLaws NoLoss OrderLaws.

(* (1) tokenisation is local: reordering whole occurrences reorders their token groups and changes
       nothing else *)
Theorem C03_tokens_swap_partial :
  forall sf sa pre a b post tp ta tb tq,
    pre_tokens sf sa pre = Some tp -> pre_tokens sf sa a = Some ta ->
    pre_tokens sf sa b = Some tb -> pre_tokens sf sa post = Some tq ->
    pre_tokens sf sa (pre ++ a ++ b ++ post) = Some (tp ++ ta ++ tb ++ tq) /\
    pre_tokens sf sa (pre ++ b ++ a ++ post) = Some (tp ++ tb ++ ta ++ tq).
Proof. exact tokens_swap_middle. Qed.
Print Assumptions C03_tokens_swap_partial.

(* (2) named consumers search the whole scope: a matching live item is found wherever it stands,
       and the leftmost one is taken *)
Theorem C03_named_found_anywhere_partial :
  forall n s ix a st,
    lenwf s -> in_scope s ix = true -> nth_error (items s) ix = Some a -> ist_at s ix = Some st ->
    present st = true -> matches_arg n false a = true -> exists s', take_flag n s = Some s'.
Proof. intros n s ix a st _. apply take_flag_anywhere. Qed.
Print Assumptions C03_named_found_anywhere_partial.

Theorem C03_leftmost_taken_partial :
  forall s f ix, find_item s f = Some ix ->
    forall jx a st, sc_start s <= jx < ix -> nth_error (items s) jx = Some a -> ist_at s jx = Some st ->
                    present st = true -> f jx a = false.
Proof. exact find_item_before. Qed.
Print Assumptions C03_leftmost_taken_partial.

(* (3) what a flag returns does not depend on the position of the item *)
Theorem C03_flag_value_position_free_partial :
  forall e n p a s s', take_flag n s = Some s' -> eval_flag e n p a s = (ROk p, s').
Proof. exact eval_flag_taken. Qed.
Print Assumptions C03_flag_value_position_free_partial.

(* (4) positional consumers skip named items *)
Theorem C03_positional_skips_named_partial :
  forall s ix strict w s', take_positional_word s = Some (ix, strict, w, s') ->
    (nth_error (items s) ix = Some (Word w) /\ strict = false) \/
    (nth_error (items s) ix = Some (PosWord w) /\ strict = true).
Proof. exact positional_skips_named. Qed.
Print Assumptions C03_positional_skips_named_partial.

Example C03_example :
  let p := PCon (PCons (PFlag (mkNamed [97%N] [] [] None) (VBool true) (Some (VBool false)))
                (PCons (PArg (mkNamed [110%N] [] [] None) [78%N] TyString false)
                (PCons (PPos [80%N] TyString Unrestricted None) PNil))) in
  let o := Options p default_info in
  run_inner (mkFeat true true false) (fun _ => None) o None [[45;97]%N; [45;110]%N; [120]%N; [119]%N] =
  run_inner (mkFeat true true false) (fun _ => None) o None [[119]%N; [45;110]%N; [120]%N; [45;97]%N].
Proof. vm_compute. reflexivity. Qed.

(* For the conventional flat levels the general statement holds: the outcome depends on the vector
   only through, for every item, the sequence of ITS occurrences, and the sequence of positional
   words -- any two vectors with the same reading are accepted with the same value (Conv.denote is
   the reading; C01_sentences_accepted_flat ties it to the evaluator). *)
From BpafModel Require Import Conv.
From BpafLemmas Require Import AbsSim ConvRefine ConvTotal.
Theorem C03_order_irrelevant_flat :
  forall feat env items tail argv1 argv2 sf sa a1 a2 v,
  flat_ok items tail ->
  short_tables (compile_options (Level items tail)) = (sf, sa) ->
  t_ambiguity (tokenize sf sa argv1) = None -> t_ambiguity (tokenize sf sa argv2) = None ->
  scan items [] tail (mark_tokens (tokenize sf sa argv1)) = ScDone a1 ->
  scan items [] tail (mark_tokens (tokenize sf sa argv2)) = ScDone a2 ->
  same_reading a1 a2 ->
  denote (Level items tail) argv1 = Accept v ->
  run_inner feat env (compile_options (Level items tail)) None argv1 = OutOk v /\
  run_inner feat env (compile_options (Level items tail)) None argv2 = OutOk v.
Proof. exact order_irrelevant_flat. Qed.
Print Assumptions C03_order_irrelevant_flat.

(* For whole conventional subcommand trees the outcome of a specified vector is a function of what
   the grammar reads from it (C01_conformance): two vectors the grammar reads alike -- in particular
   a vector and any permutation of its named occurrences that `denote` does not distinguish -- are
   both accepted with the same value, or both reported on stderr. *)
From BpafLemmas Require Import ConvChain ConvTree ConvTreeSound ConvStderr.
Theorem C03_outcome_depends_on_reading_tree :
  forall feat env l argv1 argv2,
  tree_ok l -> plain_cmds l = true ->
  denote l argv1 = denote l argv2 -> denote l argv1 <> Unspecified ->
  (exists v, run_inner feat env (compile_options l) None argv1 = OutOk v /\
             run_inner feat env (compile_options l) None argv2 = OutOk v) \/
  (exists m1 m2, run_inner feat env (compile_options l) None argv1 = OutStderr m1 /\
                 run_inner feat env (compile_options l) None argv2 = OutStderr m2).
Proof.
  intros feat env l argv1 argv2 Hok Hpl E Hs.
  destruct (denote l argv1) as [v| |] eqn:D1; [left|right|contradiction Hs; reflexivity].
  - exists v. split; apply denote_accept_tree; auto.
  - symmetry in E. destruct (denote_reject_stderr_tree feat env l argv1 Hok Hpl D1) as [m1 H1].
    destruct (denote_reject_stderr_tree feat env l argv2 Hok Hpl E) as [m2 H2]. eauto.
Qed.
Print Assumptions C03_outcome_depends_on_reading_tree.
